From stdpp Require Import gmap list.
From Coq Require Import ZArith String Lia.
From OL Require Import theories.Store theories.Abci theories.Aiming.

Definition ptr_ok (aimed : list string) (f : string -> target) : Prop :=
  forall i, existsb (String.eqb i) aimed = true -> f i = Deliver.

Lemma ptr_ok_cons aimed f id : ptr_ok aimed f -> ptr_ok (id :: aimed) (set_ptr f id Deliver).
Proof.
  intros H i Hi. unfold set_ptr. destruct (String.eqb i id) eqn:E; [reflexivity|].
  apply H. simpl in Hi. rewrite E in Hi. exact Hi.
Qed.

Lemma set_ptr_same f id t : set_ptr f id t id = t.
Proof. unfold set_ptr. rewrite String.eqb_refl. reflexivity. Qed.

Lemma ptr_ok_nil f : ptr_ok [] f.
Proof. intros i Hi. discriminate. Qed.

Lemma run_hook_aimed us : forall aimed w1 w2,
  aimed_from aimed us = true -> dl w1 = dl w2 -> ptr_ok aimed (ptr w1) -> ptr_ok aimed (ptr w2) ->
  (run_hook w1 us).1 = (run_hook w2 us).1 /\ dl (run_hook w1 us).2 = dl (run_hook w2 us).2.
Proof.
  induction us as [|[id reaim p] us IH]; intros aimed w1 w2 Ha Hd H1 H2; [now split|].
  cbn [run_hook run_use].
  set (aimed' := if reaim then id :: aimed else aimed).
  set (p1 := if reaim then set_ptr (ptr w1) id Deliver else ptr w1).
  set (p2 := if reaim then set_ptr (ptr w2) id Deliver else ptr w2).
  (* re-aimed here or aimed earlier in the hook: either way the use runs on the deliver state *)
  assert (aimed_from aimed' us = true /\ ptr_ok aimed' p1 /\ ptr_ok aimed' p2 /\
          p1 id = Deliver /\ p2 id = Deliver) as (Ha' & P1 & P2 & -> & ->).
  { subst aimed' p1 p2. destruct reaim; cbn [aimed_from] in Ha.
    - rewrite !set_ptr_same. auto using ptr_ok_cons.
    - apply andb_true_iff in Ha as [Hin Ha]. rewrite (H1 id Hin), (H2 id Hin). auto. }
  rewrite Hd. destruct (exec p (dl w2)) as [r d'].
  specialize (IH aimed' {| dl := d'; ck := ck w1; ptr := p1 |} {| dl := d'; ck := ck w2; ptr := p2 |}
                 Ha' eq_refl P1 P2).
  destruct (run_hook _ us) as [rs1 w1'], (run_hook _ us) as [rs2 w2']. cbn [fst snd] in *.
  destruct IH as [-> ->]. now split.
Qed.

Theorem checks_invisible evs : forall w1 w2, well_aimed evs = true -> dl w1 = dl w2 ->
  (run_events w1 evs).1 = (run_events w2 (strip_checks evs)).1 /\
  dl (run_events w1 evs).2 = dl (run_events w2 (strip_checks evs)).2.
Proof.
  induction evs as [|[us|p] evs IH]; intros w1 w2 Hw Hd;
    [now split| |exact (IH (run_check w1 p) w2 Hw Hd)].
  apply andb_true_iff in Hw as [Hh Hw]. cbn [strip_checks List.filter is_hook run_events].
  destruct (run_hook_aimed us [] w1 w2 Hh Hd (ptr_ok_nil _) (ptr_ok_nil _)) as (E1 & E2).
  destruct (run_hook w1 us) as [r1 w1'], (run_hook w2 us) as [r2 w2']. cbn [fst snd] in *.
  destruct (IH w1' w2' Hw E2) as [I1 I2]. fold (strip_checks evs).
  destruct (run_events w1' evs) as [rs1 w1''], (run_events w2' (strip_checks evs)) as [rs2 w2''].
  cbn [fst snd] in *. subst. now split.
Qed.
