(* CrashProofs.v — Coin arithmetic within one registered currency always answers; the fee step,
   past its guards, is such a debit and credit. *)
From Coq Require Import ZArith List Bool.
Import ListNotations.
From OL Require Import theories.Crash.
Local Open Scope Z_scope.

Lemma cur_eqb_refl c : cur_eqb c c = true.
Proof. destruct c; [apply Z.eqb_refl|reflexivity]. Qed.

Lemma coin_minus_same cur a b : coin_minus {| c_cur := Some cur ; c_amt := Some a |} {| c_cur := Some cur ; c_amt := Some b |} <> Crash.
Proof. unfold coin_minus. cbn. rewrite Z.eqb_refl. cbn. destruct (a - b <? 0); discriminate. Qed.

Lemma coin_plus_same cur a b : coin_plus {| c_cur := Some cur ; c_amt := Some a |} {| c_cur := Some cur ; c_amt := Some b |} <> Crash.
Proof. unfold coin_plus. cbn. rewrite Z.eqb_refl. discriminate. Qed.

(* the pool's currency is taken to be the one the amount is in: pools hold the native currency, and
   the handler checks the currency *)
Lemma debit_credit_registered chk reg cur v bal poolamt :
  reg cur = true -> debit_credit chk reg cur v bal cur poolamt <> Crash.
Proof.
  intros Hreg. unfold debit_credit, to_coin. rewrite Hreg. cbn [c_cur].
  destruct (chk && _); [discriminate|].
  pose proof (coin_minus_same cur bal v). destruct (coin_minus _ _); [|discriminate|contradiction].
  pose proof (coin_plus_same cur poolamt v). destruct (coin_plus _ _); [discriminate..|contradiction].
Qed.

Lemma fee_step_debit_credit guard x i :
  (1 <= nsigs i)%nat -> registered x (price_cur i) = true ->
  fee_step guard x i =
    if gas_limit i <? used i then Refused
    else debit_credit false (registered x) (price_cur i) (price_val i * used i)
           (payer_balance x (Some (price_cur i))) (fee_cur x) (pool x).
Proof.
  intros Hn Hreg. unfold fee_step, debit_credit, to_coin. rewrite Hreg.
  destruct (nsigs i); [inversion Hn|reflexivity].
Qed.
