(* OlvmProofs.v — lemmas about theories/Olvm.v.
   Under Validate only three pre-checks of the state transition can still fail; with a well-formed
   oracle answer this gives [deliver_olvm] in closed form ([deliver_olvm_eq]): either nothing
   happens or the ledger becomes [exec_state].  Everything else is read off [exec_state]. *)
From stdpp Require Import gmap list.
From Coq Require Import ZArith Lia.
From OL Require Import theories.Olvm.
Local Open Scope Z_scope.

Lemma lookup_insert_default (m : gmap addr Z) a v b :
  default 0 (<[a:=v]> m !! b) = if decide (b = a) then v else default 0 (m !! b).
Proof.
  destruct (decide (b = a)) as [->|].
  - rewrite lookup_insert. reflexivity.
  - rewrite lookup_insert_ne by congruence. reflexivity.
Qed.

Lemma balance_add_bal s a d b :
  balance (add_bal s a d) b = balance s b + if decide (b = a) then d else 0.
Proof.
  unfold add_bal, set_bal, balance; simpl. rewrite lookup_insert_default.
  destruct (decide (b = a)) as [->|]; lia.
Qed.
Lemma nonce_add_bal s a d b : nonce_of (add_bal s a d) b = nonce_of s b.
Proof. reflexivity. Qed.
Lemma pool_add_bal s a d : pool (add_bal s a d) = pool s.
Proof. reflexivity. Qed.
Lemma seqs_add_bal s a d : seqs (add_bal s a d) = seqs s.
Proof. reflexivity. Qed.

Lemma balance_set_nonce s a n b : balance (set_nonce s a n) b = balance s b.
Proof. reflexivity. Qed.
Lemma pool_set_nonce s a n : pool (set_nonce s a n) = pool s.
Proof. reflexivity. Qed.
Lemma nonce_set_nonce s a n b :
  nonce_of (set_nonce s a n) b = if decide (b = a) then n else nonce_of s b.
Proof. apply lookup_insert_default. Qed.

Lemma balance_add_pool s d b : balance (add_pool s d) b = balance s b.
Proof. reflexivity. Qed.
Lemma nonce_add_pool s d b : nonce_of (add_pool s d) b = nonce_of s b.
Proof. reflexivity. Qed.
Lemma pool_add_pool s d : pool (add_pool s d) = pool s + d.
Proof. reflexivity. Qed.

Lemma balance_apply_int l : forall s a, balance (apply_int s l) a = balance s a + delta_int l a.
Proof.
  induction l as [|[b d] l IH]; intros s a; simpl; [lia|].
  rewrite IH, balance_add_bal. lia.
Qed.
Lemma nonce_apply_int l : forall s a, nonce_of (apply_int s l) a = nonce_of s a.
Proof. induction l as [|[b d] l IH]; intros s a; [reflexivity|exact (IH _ a)]. Qed.
Lemma pool_apply_int l : forall s, pool (apply_int s l) = pool s.
Proof. induction l as [|[b d] l IH]; intros s; [reflexivity|exact (IH _)]. Qed.

Lemma bal_restore_dead l : forall s, bal (restore_dead s l) = bal s.
Proof. induction l as [|a l IH]; intros s; [reflexivity|exact (IH _)]. Qed.
Lemma pool_restore_dead l : forall s, pool (restore_dead s l) = pool s.
Proof. induction l as [|a l IH]; intros s; [reflexivity|exact (IH _)]. Qed.
Lemma balance_restore_dead l s a : balance (restore_dead s l) a = balance s a.
Proof. unfold balance. rewrite bal_restore_dead. reflexivity. Qed.
Lemma nonce_restore_dead l : forall s a, a ∉ l -> nonce_of (restore_dead s l) a = nonce_of s a.
Proof.
  induction l as [|b l IH]; intros s a; [reflexivity|].
  intros [Hab Hn]%not_elem_of_cons. simpl. rewrite IH by exact Hn. unfold nonce_of, drop_account; simpl.
  rewrite lookup_delete_ne by congruence. reflexivity.
Qed.

Lemma evm_view_eq s a : evm_view s a = balance s a.
Proof.
  unfold evm_view, keeper_get.
  destruct (seqs s !! a); [reflexivity|].
  destruct (Z.eqb_spec (balance s a) 0); [congruence|reflexivity].
Qed.

Lemma evm_nonce_eq s a : evm_nonce s a = nonce_of s a.
Proof.
  unfold evm_nonce, keeper_get, nonce_of.
  destruct (seqs s !! a); [reflexivity|].
  destruct (balance s a =? 0); reflexivity.
Qed.

Lemma total_over_cons s a l : total_over s (a :: l) = balance s a + total_over s l.
Proof. unfold total_over. simpl. lia. Qed.

Lemma total_over_add_bal_notin s a d l :
  a ∉ l -> total_over (add_bal s a d) l = total_over s l.
Proof.
  induction l as [|b l IH]; [reflexivity|]. intros [Hab Hn]%not_elem_of_cons.
  rewrite !total_over_cons, balance_add_bal, IH, decide_False by congruence. lia.
Qed.

Lemma total_over_add_bal s a d l :
  NoDup l -> a ∈ l -> total_over (add_bal s a d) l = total_over s l + d.
Proof.
  induction 1 as [|b l Hb _ IH]; intros Hin; [inversion Hin|].
  rewrite !total_over_cons, balance_add_bal. destruct (decide (b = a)) as [->|Hne].
  - rewrite total_over_add_bal_notin by exact Hb. lia.
  - apply elem_of_cons in Hin as [->|Hin]; [congruence|]. rewrite IH by exact Hin. lia.
Qed.

Lemma total_over_set_nonce s a n l : total_over (set_nonce s a n) l = total_over s l.
Proof. reflexivity. Qed.

Lemma total_over_add_pool s d l : total_over (add_pool s d) l = total_over s l + d.
Proof. apply Z.add_assoc. Qed.

Lemma total_over_restore_dead s l' l : total_over (restore_dead s l') l = total_over s l.
Proof. unfold total_over, balance. rewrite bal_restore_dead, pool_restore_dead. reflexivity. Qed.

Lemma total_over_apply_int li l :
  NoDup l -> (forall p, p ∈ li -> p.1 ∈ l) ->
  forall s, total_over (apply_int s li) l = total_over s l + sum_int li.
Proof.
  intros Hnd. induction li as [|[b d] li IH]; intros Hin s; simpl; [lia|].
  rewrite IH by (intros p Hp; apply Hin; right; exact Hp).
  rewrite total_over_add_bal; [|exact Hnd|apply (Hin (b, d)); left].
  unfold sum_int. simpl. lia.
Qed.

Lemma intrinsic_ge t ig : 0 <= t_nz t -> 0 <= t_z t -> intrinsic_gas t = Some ig -> TxGas <= ig.
Proof.
  intros Hnz Hz. unfold intrinsic_gas, TxDataNonZeroGas, TxDataZeroGas.
  assert (TxGas <= if is_create t then TxGasContractCreation else TxGas)
    by (destruct (is_create t); unfold TxGas, TxGasContractCreation; lia).
  destruct (_ =? 0); [intros [= <-]; assumption|].
  destruct (_ <? t_nz t); [discriminate|]. destruct (_ <? t_z t); [discriminate|].
  intros [= <-]. lia.
Qed.

Lemma gas_u64_id t : - 2^63 <= t_gas t < 2^63 -> gas_u64 t <= MaxInt64 -> gas_u64 t = t_gas t.
Proof.
  unfold gas_u64, MaxInt64. change (2^64) with (2^63 + 2^63).
  (* the bound is abstracted before [lia] runs, so that its certificates carry no 64-bit numerals *)
  generalize (2^63). intros k Hx Hm.
  destruct (Z.lt_ge_cases (t_gas t) 0).
  - rewrite <- (Z.mod_add _ 1), Z.mod_small in Hm; lia.
  - apply Z.mod_small. lia.
Qed.

Lemma wrap64_id z b : 0 <= z <= b -> b < 2^63 -> wrap64 z = z.
Proof.
  unfold wrap64. change (2^64) with (2^63 + 2^63). generalize (2^63). intros k Hz Hb.
  rewrite Z.mod_small; lia.
Qed.

Definition gas_used (t : otx) (o : oracle) : Z := gas_u64 t - gas_final (gas_u64 t) o.

Lemma gas_used_bounds t o ig :
  0 < ig <= gas_u64 t -> 0 <= o_left o <= gas_u64 t - ig -> 0 <= o_refund o ->
  0 < gas_used t o <= gas_u64 t.
Proof.
  intros Hig Hl Hr. unfold gas_used, gas_final, RefundQuotient.
  (* the refund is capped at a third of the gas spent, and the intrinsic gas is always spent *)
  destruct (Z.ltb_spec (o_refund o) ((gas_u64 t - o_left o) / 3)); Z.div_mod_to_equations; lia.
Qed.

Lemma validate_inv s m t :
  validate s m t = true ->
  nonce_of s (t_from t) <= t_nonce t /\ 0 <= t_value t /\
  t_value t + gas_u64 t * t_price t <= balance s (t_from t) /\
  exists ig, intrinsic_gas t = Some ig /\ ig <= gas_u64 t.
Proof.
  unfold validate, native_view. rewrite evm_nonce_eq.
  intros [[[[[[[_ _]%andb_prop Hv]%andb_prop _]%andb_prop Hn]%andb_prop Hf]%andb_prop Hig]%andb_prop _]%andb_prop.
  apply Z.leb_le in Hv. apply negb_true_iff, Z.ltb_ge in Hn, Hf.
  destruct (intrinsic_gas t) as [ig|]; [|discriminate]. apply negb_true_iff, Z.ltb_ge in Hig. eauto 6.
Qed.

Definition vm_state (s : state) (e : env) (t : otx) (o : oracle) : state :=
  let from := t_from t in
  let to := recipient e t in
  let s2 := set_nonce (add_bal s from (- (gas_u64 t * t_price t))) from (nonce_of s from + 1) in
  let s3 := if o_failed o then s2
            else
              let s' := add_bal (add_bal s2 from (- t_value t)) to (t_value t) in
              apply_int (if is_create t then set_nonce s' to 1 else s') (o_int o) in
  let s4 := add_bal s3 from (gas_final (gas_u64 t) o * t_price t) in
  if o_failed o then s4 else restore_dead s4 (o_dead o).

Lemma transition_validated s e t o m :
  validate s m t = true ->
  transition s e t o =
    if nonce_gap s t then (inl RNonceHigh, s)
    else if e_sender_code e then (inl RNotEOA, s)
    else if e_block_gas e <? gas_u64 t then (inl RBlockGas, s)
    else (inr (o_failed o, gas_used t o), vm_state s e t o).
Proof.
  intros (Hn & Hv & Hf & ig & Eig & Hig)%validate_inv.
  unfold transition, nonce_gap. cbv zeta.
  rewrite Eig, !evm_nonce_eq, !evm_view_eq, balance_add_bal, decide_True by reflexivity.
  (* nonce too low, insufficient funds (for gas, then for the value) and gas below intrinsic are
     excluded by Validate *)
  rewrite (proj2 (Z.ltb_ge (t_nonce t) _)), (proj2 (Z.ltb_ge (balance _ _) (_ * _))),
    (proj2 (Z.ltb_ge _ ig)), (proj2 (Z.ltb_ge (_ + _) _)), andb_false_r by lia.
  destruct (nonce_of s (t_from t) <? t_nonce t), (e_sender_code e), (e_block_gas e <? gas_u64 t);
    reflexivity.
Qed.

Definition admitted (s : state) (e : env) (t : otx) : bool :=
  negb (e_dup e) && validate s (e_min_fee e) t && negb (nonce_gap s t)
  && negb (e_sender_code e) && negb (e_block_gas e <? gas_u64 t).

Lemma admitted_iff s e t :
  admitted s e t = true <->
  e_dup e = false /\ validate s (e_min_fee e) t = true /\ nonce_gap s t = false /\
  e_sender_code e = false /\ gas_u64 t <= e_block_gas e.
Proof.
  unfold admitted. split.
  - intros [[[[Hd Hv]%andb_prop Hg]%andb_prop Hc]%andb_prop Hb]%andb_prop.
    apply negb_true_iff in Hd, Hg, Hc, Hb. apply Z.ltb_ge in Hb. auto.
  - intros (-> & -> & -> & -> & ->%Z.ltb_ge). reflexivity.
Qed.

Lemma admitted_nonce s e t : admitted s e t = true -> nonce_of s (t_from t) = t_nonce t.
Proof.
  intros (_ & (Hn & _)%validate_inv & Hgap & _)%admitted_iff.
  unfold nonce_gap in Hgap. rewrite evm_nonce_eq in Hgap. apply Z.ltb_ge in Hgap. lia.
Qed.

Definition well_formed (e : env) (t : otx) (o : oracle) : Prop :=
  e_block_gas e <= MaxInt64 /\ - 2^63 <= t_gas t < 2^63 /\ 0 <= t_nz t /\ 0 <= t_z t /\
  oracle_ok t o.

Lemma admitted_gas s e t o :
  well_formed e t o -> admitted s e t = true ->
  gas_u64 t = t_gas t /\ 0 < gas_used t o <= t_gas t.
Proof.
  intros (Hbg & Hgas & Hnz & Hz & Hl & Hr) (_ & Hv & _ & _ & Hblock)%admitted_iff.
  apply validate_inv in Hv as (_ & _ & _ & ig & Eig & Hig).
  rewrite Eig in Hl. pose proof (intrinsic_ge t ig Hnz Hz Eig) as Hmin. unfold TxGas in Hmin.
  rewrite <- (gas_u64_id t Hgas (Z.le_trans _ _ _ Hblock Hbg)). split; [reflexivity|].
  clear Hbg Hgas. apply (gas_used_bounds t o ig); lia.
Qed.

Definition exec_state (s : state) (e : env) (t : otx) (o : oracle) : state :=
  add_pool (vm_state s e t o) (t_price t * gas_used t o).

Lemma deliver_olvm_eq s e t o :
  well_formed e t o ->
  deliver_olvm s e t o =
    if admitted s e t then (Executed (o_failed o) (gas_used t o), exec_state s e t o)
    else (if e_dup e then Duplicate else NotExecuted, s).
Proof.
  intros Hwf. pose proof (admitted_gas s e t o Hwf) as Hu.
  unfold deliver_olvm, admitted in *.
  destruct (e_dup e); [reflexivity|].
  destruct (validate s (e_min_fee e) t) eqn:Hv; [|reflexivity].
  unfold handler. rewrite (transition_validated s e t o _ Hv).
  destruct (nonce_gap s t), (e_sender_code e), (e_block_gas e <? gas_u64 t); try reflexivity.
  destruct Hu as [_ Hu]; [reflexivity|]. destruct Hwf as (_ & [_ Hgas] & _).
  simpl. rewrite (wrap64_id _ (t_gas t)) by (exact Hgas || lia). clear Hgas. unfold contract_fee.
  rewrite !(proj2 (Z.eqb_neq _ _)), (proj2 (Z.ltb_ge _ _)) by lia. reflexivity.
Qed.

Lemma executed_inv s e t o f used s' :
  well_formed e t o -> deliver_olvm s e t o = (Executed f used, s') ->
  admitted s e t = true /\ f = o_failed o /\ used = gas_used t o /\ s' = exec_state s e t o.
Proof.
  intros Hwf. rewrite (deliver_olvm_eq s e t o Hwf).
  destruct (admitted s e t); [|destruct (e_dup e); discriminate].
  intros [= <- <- <-]. auto.
Qed.

(* an externally owned sender has no code to execute SELFDESTRUCT *)
Definition survives (o : oracle) (a : addr) : Prop := o_failed o = true \/ a ∉ o_dead o.

Lemma exec_state_pool s e t o :
  pool (exec_state s e t o) = pool s + gas_used t o * t_price t.
Proof.
  unfold exec_state. rewrite pool_add_pool, (Z.mul_comm (t_price t)). f_equal.
  unfold vm_state. destruct (o_failed o); [reflexivity|].
  rewrite pool_restore_dead, pool_add_bal, pool_apply_int. destruct (is_create t); reflexivity.
Qed.

Lemma exec_state_balance s e t o a :
  balance (exec_state s e t o) a =
    balance s a
    + (if decide (a = t_from t)
       then - (gas_used t o * t_price t + moved t (o_failed o)) else 0)
    + (if decide (a = recipient e t) then moved t (o_failed o) else 0)
    + (if o_failed o then 0 else delta_int (o_int o) a).
Proof.
  unfold exec_state, vm_state, gas_used, moved. rewrite balance_add_pool.
  destruct (o_failed o).
  - rewrite !balance_add_bal, balance_set_nonce, balance_add_bal.
    destruct (decide (a = t_from t)), (decide (a = recipient e t)); lia.
  - rewrite balance_restore_dead, balance_add_bal, !balance_apply_int.
    destruct (is_create t);
      rewrite ?balance_set_nonce, !balance_add_bal, balance_set_nonce, balance_add_bal;
      destruct (decide (a = t_from t)); lia.
Qed.

Lemma exec_state_nonce_sender s e t o :
  survives o (t_from t) -> (is_create t = true -> recipient e t <> t_from t) ->
  nonce_of (exec_state s e t o) (t_from t) = nonce_of s (t_from t) + 1.
Proof.
  intros Hsd Hne. unfold exec_state, vm_state. rewrite nonce_add_pool.
  destruct (o_failed o) eqn:Ef.
  - rewrite nonce_add_bal, nonce_set_nonce, decide_True by reflexivity. reflexivity.
  - destruct Hsd as [|Hsd]; [congruence|].
    rewrite nonce_restore_dead, nonce_add_bal, nonce_apply_int by exact Hsd.
    destruct (is_create t).
    + rewrite nonce_set_nonce, decide_False, !nonce_add_bal, nonce_set_nonce, decide_True
        by (try apply not_eq_sym; auto).
      reflexivity.
    + rewrite !nonce_add_bal, nonce_set_nonce, decide_True by reflexivity. reflexivity.
Qed.

Lemma exec_state_total s e t o l :
  NoDup l -> t_from t ∈ l -> recipient e t ∈ l -> (forall p, p ∈ o_int o -> p.1 ∈ l) ->
  total_over (exec_state s e t o) l =
    total_over s l + (if o_failed o then 0 else sum_int (o_int o)).
Proof.
  intros Hnd Hfrom Hto Hint. unfold exec_state, vm_state, gas_used.
  (* buyGas - refund = gasUsed * price = the separate AddToPool credit; the value moved cancels *)
  rewrite total_over_add_pool. destruct (o_failed o).
  - rewrite total_over_add_bal, total_over_set_nonce, total_over_add_bal by assumption. lia.
  - rewrite total_over_restore_dead, total_over_add_bal, total_over_apply_int by assumption.
    destruct (is_create t);
      rewrite ?total_over_set_nonce, !total_over_add_bal, total_over_set_nonce, total_over_add_bal
        by assumption; lia.
Qed.

Lemma conservation s e t o f used s' l :
  well_formed e t o ->
  deliver_olvm s e t o = (Executed f used, s') ->
  NoDup l -> t_from t ∈ l -> recipient e t ∈ l -> (forall p, p ∈ o_int o -> p.1 ∈ l) ->
  total_over s' l = total_over s l + (if f then 0 else sum_int (o_int o)).
Proof.
  intros Hwf (_ & -> & _ & ->)%executed_inv; [|exact Hwf]. apply exec_state_total.
Qed.

Lemma send_inv s m t used s' :
  deliver_send s m t used = (true, s') ->
  send_validate m t = true /\
  s' = add_pool (add_bal (add_bal (add_bal s (n_from t) (- n_amount t)) (n_to t) (n_amount t))
                   (n_from t) (- (n_price t * used))) (n_price t * used).
Proof.
  unfold deliver_send. destruct (send_validate m t); simpl; [|discriminate].
  repeat case_match; try discriminate. intros [= <-]. auto.
Qed.
