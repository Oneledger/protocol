(* AuthProofs.v — action.ValidateBasic accepts exactly one signature list: the required signers'
   own signatures over the content, in order.  Every admission result of C04 is read off that. *)
From Coq Require Import ZArith List Bool.
Import ListNotations.
From OL Require Import theories.Auth.
Local Open Scope Z_scope.

Lemma rawtx_eqb_eq a b : rawtx_eqb a b = true <-> a = b.
Proof.
  unfold rawtx_eqb. split; [|intros ->; rewrite !Z.eqb_refl; reflexivity].
  destruct a, b; cbn. intros H. repeat (apply andb_prop in H as [H ?%Z.eqb_eq]).
  apply Z.eqb_eq in H. subst. reflexivity.
Qed.

Lemma sig_check_iff msg a s :
  s_alg_ok s && (addr_of (s_key s) =? a) && verify (s_key s) msg s = true <-> s = sign a msg.
Proof.
  unfold verify, addr_of. split.
  - destruct s; cbn.
    intros [[-> ->%Z.eqb_eq]%andb_prop [->%Z.eqb_eq ->%rawtx_eqb_eq]%andb_prop]%andb_prop.
    reflexivity.
  - intros ->. cbn. rewrite !Z.eqb_refl. apply rawtx_eqb_eq. reflexivity.
Qed.

Lemma validate_sigs_iff msg signers : forall sigs,
  validate_sigs msg signers sigs = true <-> sigs = map (fun a => sign a msg) signers.
Proof.
  induction signers as [|a signers IH]; intros [|s sigs]; cbn [validate_sigs map];
    try (split; congruence). split.
  - intros [->%sig_check_iff ->%IH]%andb_prop. reflexivity.
  - intros [= -> ->]. apply andb_true_intro. split; [apply sig_check_iff|apply IH]; reflexivity.
Qed.

Theorem validate_basic_iff msg signers sigs :
  validate_basic msg signers sigs = true <-> sigs = map (fun a => sign a msg) signers.
Proof.
  unfold validate_basic. split.
  - (* the count check of ValidateBasic is implied by the pairwise one *)
    intros [_ H]%andb_prop. apply validate_sigs_iff, H.
  - intros ->. rewrite map_length, Nat.eqb_refl. apply validate_sigs_iff. reflexivity.
Qed.

Lemma authentic_signed msg signers : authentic msg signers (map (fun a => sign a msg) signers).
Proof. induction signers; cbn; auto. Qed.

Theorem validate_basic_sound msg signers sigs :
  validate_basic msg signers sigs = true -> authentic msg signers sigs.
Proof. intros ->%validate_basic_iff. apply authentic_signed. Qed.

Section Admission.
  Variable signers_of : rawtx -> list Z.
  Variable static_ok process_ok : rawtx -> bool.

  Lemma validate_sound t : validate signers_of static_ok t = true ->
    authentic (t_raw t) (signers_of (t_raw t)) (t_sigs t).
  Proof. intros [H _]%andb_prop. exact (validate_basic_sound _ _ _ H). Qed.

  Theorem deliver_ignores_signatures t sigs' :
    deliver_tx signers_of static_ok process_ok false t =
    deliver_tx signers_of static_ok process_ok false {| t_raw := t_raw t ; t_sigs := sigs' |}.
  Proof. reflexivity. Qed.
End Admission.
