(* ReplayProofs.v — the hash index as a set, and what one delivery does to index and block. *)
From Coq Require Import ZArith List Bool.
Import ListNotations.
From OL Require Import theories.Replay.
Local Open Scope Z_scope.

Lemma bytes_eqb_eq a : forall b, bytes_eqb a b = true <-> a = b.
Proof.
  induction a as [|x a IH]; intros [|y b]; cbn; try (split; congruence). split.
  - intros [->%Z.eqb_eq ->%IH]%andb_prop. reflexivity.
  - intros [= -> ->]. rewrite Z.eqb_refl. apply IH. reflexivity.
Qed.

Lemma mem_In h l : mem h l = true <-> In h l.
Proof.
  induction l as [|x l IH]; cbn; [split; [discriminate|contradiction]|]. split.
  - intros [->%bytes_eqb_eq|H%IH]%orb_prop; auto.
  - intros [->|H%IH]; apply orb_true_intro; [left; apply bytes_eqb_eq; reflexivity|right; exact H].
Qed.

Section Replay.
  Variable content : Type.
  Variable decode : bytes -> option content.
  Variable state : Type.
  Variable admissible : content -> state -> bool.
  Variable apply : content -> state -> state.

  Notation deliver := (deliver content decode state admissible apply).
  Notation node := (node state).

  Lemma deliver_spec (n : node) b : exists v s',
    deliver n b = if mem b (idx state n) then (Duplicate, n)
                  else (v, {| idx := idx state n ; st := s' ; pending := b :: pending state n |}).
  Proof.
    unfold deliver, hash. destruct (mem b (idx state n)); [exists Duplicate, (st state n); reflexivity|].
    destruct (parse content decode b) as [c|]; [destruct (admissible c (st state n))|];
      eexists _, _; reflexivity.
  Qed.

  Definition canonical (b : bytes) : Prop := strip_ws b = b.

  Lemma canonical_parse_inj b b' :
    (forall x y c, decode x = Some c -> decode y = Some c -> x = y) ->
    canonical b -> canonical b' -> parse content decode b <> None ->
    parse content decode b' = parse content decode b -> b' = b.
  Proof.
    unfold parse, canonical. intros Hinj -> -> Hsome Hsame.
    destruct (decode b) as [c|] eqn:E; [|contradiction]. exact (Hinj b' b c Hsame E).
  Qed.
End Replay.
