(* TrackerProofs.v — lemmas about the model in theories/Tracker.v (property C15).

   [step_effect] turns [step] into a relation, [effect], whose cases change the stores in one of
   four ways: a new ongoing tracker ([new_at]), an ongoing tracker rewritten in place ([set_at]),
   an ongoing tracker moved to the passed or to the failed store (a block end is a chain of
   [block_step]s).  Each invariant is shown for these changes, then for a step by cases on [effect],
   then for histories by [run_ind]. *)
From stdpp Require Import gmap list.
From Coq Require Import ZArith Lia.
From OL Require Import theories.Tracker.
Local Open Scope Z_scope.

Lemma has_true (m : gmap name tracker) n : has m n = true <-> is_Some (m !! n).
Proof. rewrite <- not_eq_None_Some. unfold has. by destruct (m !! n). Qed.
Lemma has_false (m : gmap name tracker) n : has m n = false <-> m !! n = None.
Proof. unfold has. by destruct (m !! n). Qed.

Lemma balof_credit b a z c :
  balof (credit b a z) c = if decide (c = a) then balof b a + z else balof b c.
Proof.
  unfold credit, balof at 1. destruct (decide (c = a)) as [->|Hne].
  - by rewrite lookup_insert.
  - by rewrite lookup_insert_ne.
Qed.

Lemma list_neq_cons {A} (e : A) l : l <> e :: l.
Proof. intros H. apply (f_equal length) in H. simpl in H. lia. Qed.

Lemma count_insert x y l k :
  l !! k = Some y ->
  forall v, count x (<[k := v]> l) = count x l - (if y =? x then 1 else 0) + (if v =? x then 1 else 0).
Proof.
  revert k. induction l as [|h r IH]; intros k Hk v; [done|].
  destruct k as [|k]; simpl in *.
  - inversion Hk; subst. lia.
  - rewrite (IH k Hk v). lia.
Qed.

Lemma count_insert_other x v l k : v <> x -> count x (<[k := v]> l) <= count x l.
Proof.
  intros Hne. destruct (l !! k) as [y|] eqn:Hk.
  - rewrite (count_insert _ _ _ _ Hk). destruct (Z.eqb_spec v x); [done|]. destruct (y =? x); lia.
  - rewrite list_insert_ge; [lia|]. by apply lookup_ge_None.
Qed.

Lemma count_bounds x l : 0 <= count x l <= Z.of_nat (length l).
Proof. induction l as [|h r IH]; simpl; [lia|]. destruct (h =? x); lia. Qed.

Lemma index_of_lookup a l i : index_of a l = Some i -> l !! i = Some a.
Proof.
  revert i. induction l as [|b r IH]; intros i; simpl; [done|].
  destruct (N.eqb_spec b a) as [->|Hne].
  - intros [= <-]. done.
  - destruct (index_of a r) as [j|]; simpl; [|done]. intros [= <-]. simpl. by apply IH.
Qed.

Lemma index_of_nodup a l i : NoDup l -> l !! i = Some a -> index_of a l = Some i.
Proof.
  intros Hnd. revert i. induction Hnd as [|b r Hnin Hnd IH]; intros i; [done|].
  destruct i as [|i]; simpl.
  - intros [= ->]. by rewrite N.eqb_refl.
  - intros Hi. destruct (N.eqb_spec b a) as [->|Hne].
    + exfalso. apply Hnin. by eapply elem_of_list_lookup_2.
    + by rewrite (IH i Hi).
Qed.

Lemma index_of_none a l : index_of a l = None -> a ∉ l.
Proof.
  induction l as [|b r IH]; simpl; [intros _; apply not_elem_of_nil|].
  destruct (N.eqb_spec b a) as [->|Hne]; [done|].
  destruct (index_of a r); [done|]. intros _ [->|Hin]%elem_of_cons; [done|]. by apply IH.
Qed.

Lemma add_vote_ok t a idx v t' :
  add_vote t a idx v = AVOk t' ->
  t' = t \/
  exists k, idx = Z.of_nat k /\ t_wit t !! k = Some a /\ voted t a = false /\
            t' = set_votes t (<[k := vote_code v]> (t_votes t)).
Proof.
  unfold add_vote. destruct (_ <=? idx); [done|].
  destruct (voted t a) eqn:Hv; [done|].
  destruct (idx <? 0) eqn:Hneg; [done|]. apply Z.ltb_ge in Hneg.
  destruct (t_wit t !! Z.to_nat idx) as [b|] eqn:Hl; [|intros [= <-]; by left].
  destruct (N.eqb_spec b a) as [->|Hne]; intros [= <-]; [|by left].
  right. exists (Z.to_nat idx). split; [lia|]. done.
Qed.

Definition same_record (t t' : tracker) : Prop :=
  t_type t' = t_type t /\ t_name t' = t_name t /\ t_tx t' = t_tx t /\ t_wit t' = t_wit t /\ t_owner t' = t_owner t.

Lemma add_vote_same_record t a idx v t' : add_vote t a idx v = AVOk t' -> same_record t t'.
Proof. by intros [->|(k & _ & _ & _ & ->)]%add_vote_ok. Qed.

Lemma vote_crossing t a idx v t' (y : bool) :
  add_vote t a idx v = AVOk t' ->
  count (vote_code y) (t_votes t) < threshold t -> threshold t' <= count (vote_code y) (t_votes t') ->
  v = y /\ exists k, idx = Z.of_nat k /\ t_wit t !! k = Some a /\ voted t a = false /\
                     t' = set_votes t (<[k := vote_code y]> (t_votes t)).
Proof.
  intros [->|(k & -> & Hk & Hv & ->)]%add_vote_ok Hlt Hle; [lia|].
  destruct (decide (v = y)) as [->|Hne]; [eauto 10|]. exfalso.
  (* the other code never raises the count *)
  pose proof (count_insert_other (vote_code y) (vote_code v) (t_votes t) k ltac:(by destruct v, y)).
  unfold threshold in *. simpl in *. lia.
Qed.

Definition new_at (s : state) (n : name) (t : tracker) (b : gmap acct Z) (l : list event) : state :=
  {| ongoing := <[n := t]> (ongoing s); passed := passed s; failed := delete n (failed s); bal := b; log := l |}.
Definition set_at (s : state) (n : name) (t : tracker) (b : gmap acct Z) (l : list event) : state :=
  {| ongoing := <[n := t]> (ongoing s); passed := passed s; failed := failed s; bal := b; log := l |}.

(* coarser than [transition]: the tracker type and the vote tests of the lock steps are left out, no
   invariant needs them *)
Definition advances (t : tracker) (X : Z) : Prop :=
  t_state t = S_NEW /\ X = S_BUSYBROADCASTING \/
  t_state t = S_BUSYBROADCASTING /\ X = S_BUSYFINALIZING \/
  t_state t = S_BUSYFINALIZING /\ X = S_FINALIZED.

Inductive block_step (s : state) : state -> Prop :=
| bs_advance n t X :
    ongoing s !! n = Some t -> advances t X -> block_step s (set_at s n (set_state t X) (bal s) (log s))
| bs_pass n t : ongoing s !! n = Some t -> t_state t = S_RELEASED -> block_step s (move_to_passed s n t)
| bs_fail n t : ongoing s !! n = Some t -> t_state t = S_FAILED -> block_step s (move_to_failed s n t).

(* [eff_pay]: [y] true is the mint, [y] false the refund.  [eff_vote] is every other report that
   rewrites the tracker; that it keeps the record is all the invariants need of it. *)
Inductive effect (E : env) (s : state) : op -> out -> state -> Prop :=
| eff_refused o r : r <> Ok -> effect E s o r s
| eff_idle n l v idx b : effect E s (Report n l v idx b) Ok s
| eff_lock a x amt n :
    n = x_name (e_tx E x) -> x_lock (e_tx E x) = Some amt -> ongoing s !! n = None -> passed s !! n = None ->
    effect E s (Lock a x) Ok (new_at s n (new_tracker T_LOCK a x n (e_wits E)) (bal s) (log s))
| eff_redeem a x amt n :
    n = x_name (e_tx E x) -> x_redeem (e_tx E x) = Some amt -> amt <= balof (bal s) a ->
    ongoing s !! n = None -> passed s !! n = None -> failed s !! n = None ->
    effect E s (Redeem a x) Ok
      (new_at s n (new_tracker T_REDEEM a x n (e_wits E))
         (credit (credit (bal s) a (- amt)) (e_supply E) (- amt)) (Debited n a amt :: log s))
| eff_pay n l v k t (y : bool) z :
    ongoing s !! n = Some t -> finalizedb t = false -> failedb t = false ->
    t_wit t !! k = Some v -> voted t v = false ->
    threshold t <= count (vote_code y) (<[k := vote_code y]> (t_votes t)) ->
    t_type t = (if y then T_LOCK else T_REDEEM) ->
    (if y then x_lock else x_redeem) (e_tx E (t_tx t)) = Some z ->
    effect E s (Report n l v (Z.of_nat k) y) Ok
      (set_at s n (set_state (set_votes t (<[k := vote_code y]> (t_votes t))) (if y then S_RELEASED else S_FAILED))
         (credit (credit (bal s) (t_owner t) z) (e_supply E) z)
         ((if y then Minted else Refunded) n (t_owner t) z :: log s))
| eff_vote n l v idx b t t' :
    ongoing s !! n = Some t -> finalizedb t = false -> failedb t = false -> same_record t t' ->
    effect E s (Report n l v idx b) Ok (set_at s n t' (bal s) (log s))
| eff_transfer f t amt :
    effect E s (Transfer f t amt) Ok
      {| ongoing := ongoing s; passed := passed s; failed := failed s;
         bal := credit (credit (bal s) f (- amt)) t amt; log := log s |}
| eff_block nl names r s' : rtc block_step s s' -> effect E s (EndBlock nl names) r s'.

Local Ltac refused := by intros [= <- <-]; constructor.

Lemma transition_block_step nl s n s' r : transition nl s n = (s', r) -> s' = s \/ block_step s s'.
Proof.
  (* all branches of [transition]; the tests on the state mark that led to one say which [block_step] it is *)
  unfold transition. destruct (ongoing s !! n) as [t|] eqn:Ht; [|by intros [= <- _]; left].
  repeat (match goal with |- context [if ?c then _ else _] => destruct c eqn:? end);
    intros [= <- _]; try (by left); right;
    repeat match goal with H : (_ =? _) = true |- _ => apply Z.eqb_eq in H end;
    (by econstructor) || (eapply bs_advance; [done|]; unfold advances; tauto).
Qed.

Lemma end_block_steps nl names : forall s, rtc block_step s (end_block nl s names).1.
Proof.
  induction names as [|n names IH]; intros s; simpl; [done|].
  destruct (transition nl s n) as [s1 o1] eqn:H1. specialize (IH s1). destruct (end_block nl s1 names). simpl in *.
  apply transition_block_step in H1 as [->|?]; [done|by eapply rtc_l].
Qed.

Theorem step_effect E s o s' r : step E s o = (s', r) -> effect E s o r s'.
Proof.
  destruct o as [a x|a x|n l v idx b|f t0 amt|nl names]; simpl.
  - unfold do_lock. destruct (x_lock (e_tx E x)) eqn:Hx; [|refused]. destruct (negb _); [refused|].
    destruct (has (ongoing s) _) eqn:Ho; [refused|]. destruct (has (passed s) _) eqn:Hp; [refused|].
    intros [= <- <-]. apply has_false in Ho, Hp. by econstructor.
  - unfold do_redeem. destruct (x_redeem (e_tx E x)) as [amt|] eqn:Hx; [|refused].
    destruct (Z.ltb_spec (balof (bal s) a - amt) 0); [refused|]. destruct (_ <? 0); [refused|].
    destruct (has (ongoing s) _) eqn:Ho; [refused|]. destruct (has (failed s) _) eqn:Hf; [refused|].
    destruct (has (passed s) _) eqn:Hp; [refused|].
    intros [= <- <-]. apply has_false in Ho, Hf, Hp. rewrite <- (delete_notin _ _ Hf).
    apply (eff_redeem E s a x amt); (done || lia).
  - unfold do_report. destruct (ongoing s !! n) as [t|] eqn:Ht; [|refused].
    destruct (finalizedb t) eqn:Hfin; simpl; [intros [= <- <-]; apply eff_idle|].
    destruct (failedb t) eqn:Hfail; [intros [= <- <-]; apply eff_idle|].
    destruct (add_vote t v idx b) as [| |t'] eqn:Hav; [refused..|].
    (* [Hsr] also serves for [set_state t' _], which has the record of [t'] *)
    pose proof (add_vote_same_record _ _ _ _ _ Hav) as Hsr.
    pose proof (fun t'' => eff_vote E s n l v idx b t t'' Ht Hfin Hfail) as Hvote.
    destruct (finalizedb t') eqn:Hfin'; [|destruct (failedb t') eqn:Hfail'].
    + destruct (Z.eqb_spec (t_type t') T_LOCK).
      * destruct (x_lock _) eqn:Hx; [|refused]. intros [= <- <-]. apply Z.leb_le in Hfin'.
        destruct (vote_crossing _ _ _ _ _ true Hav) as (-> & k & -> & ? & ? & ->); [by apply Z.leb_gt|done|].
        by apply (eff_pay E s n l v k t true).
      * destruct (_ =? T_REDEEM); intros [= <- <-]; [apply Hvote, Hsr|apply eff_idle].
    + destruct (Z.eqb_spec (t_type t') T_LOCK); [intros [= <- <-]; apply Hvote, Hsr|].
      destruct (Z.eqb_spec (t_type t') T_REDEEM); [|intros [= <- <-]; apply eff_idle].
      destruct (x_redeem _) eqn:Hx; [|refused]. intros [= <- <-]. apply Z.leb_le in Hfail'.
      destruct (vote_crossing _ _ _ _ _ false Hav) as (-> & k & -> & ? & ? & ->); [by apply Z.leb_gt|done|].
      by apply (eff_pay E s n l v k t false).
    + intros [= <- <-]. apply Hvote, Hsr.
  - unfold do_transfer. destruct (_ <? 0); [refused|]. destruct (_ <? 0); [refused|].
    intros [= <- <-]. constructor.
  - intros Hend. constructor. pose proof (end_block_steps nl names s) as H. by rewrite Hend in H.
Qed.

Lemma redeem_fail_noop E s a x s' r : do_redeem E s a x = (s', r) -> r <> Ok -> s' = s.
Proof. intros H%(step_effect E s (Redeem a x)) Hr. by inversion H. Qed.

Lemma run_ind E (P : state -> Prop) :
  (forall s o s' r, P s -> valid E o = true -> step E s o = (s', r) -> P s') ->
  forall ops s, P s -> P (run E s ops).
Proof.
  intros Hstep. induction ops as [|o ops IH]; intros s Hs; [done|]. apply IH. unfold vstep.
  destruct (valid E o) eqn:Hv; [|done]. destruct (step E s o) eqn:Ho. eauto.
Qed.

Lemma block_steps_bal_log s s' : rtc block_step s s' -> bal s' = bal s /\ log s' = log s.
Proof. apply (rtc_ind_r (fun s' => bal s' = bal s /\ log s' = log s)); [done|]. by intros s1 s2 _ [] ?. Qed.

Theorem payout_gated E s o s' r (y : bool) n a z :
  step E s o = (s', r) -> log s' = (if y then Minted else Refunded) n a z :: log s ->
  exists l v idx k t,
    o = Report n l v idx y /\ r = Ok /\
    ongoing s !! n = Some t /\ t_type t = (if y then T_LOCK else T_REDEEM) /\ a = t_owner t /\
    idx = Z.of_nat k /\ t_wit t !! k = Some v /\ voted t v = false /\
    let t' := set_votes t (<[k := vote_code y]> (t_votes t)) in
    count (vote_code y) (t_votes t) < threshold t /\ threshold t <= count (vote_code y) (t_votes t') /\
    (if y then x_lock else x_redeem) (e_tx E (t_tx t)) = Some z /\
    ongoing s' !! n = Some (set_state t' (if y then S_RELEASED else S_FAILED)) /\
    passed s' = passed s /\ failed s' = failed s /\
    bal s' = credit (credit (bal s) a z) (e_supply E) z.
Proof.
  intros Hst%step_effect Hlog.
  destruct Hst as [| | | |n0 l v k t y0 z0 Ht Hfin Hfail| | |? ? ? ? [_ Hl]%block_steps_bal_log];
    simpl in Hlog; try (by apply list_neq_cons in Hlog).
  - by destruct y.
  - (* the logged event tells mint from refund *)
    destruct y, y0; try done; injection Hlog as -> <- ->;
      exists l, v, (Z.of_nat k), k, t; simpl; rewrite lookup_insert; repeat split; try done; by apply Z.leb_gt.
  - rewrite Hl in Hlog. by apply list_neq_cons in Hlog.
Qed.

Lemma tot_fresh (b : gmap acct Z) a v : b !! a = None -> tot (<[a := v]> b) = v + tot b.
Proof.
  intros Hb. unfold tot.
  rewrite (map_fold_insert_L (fun _ v acc => v + acc) 0 a v b); [done|intros; lia|done].
Qed.

Lemma tot_insert (b : gmap acct Z) a v : tot (<[a := v]> b) = tot b - balof b a + v.
Proof.
  unfold balof. destruct (b !! a) as [x|] eqn:Hb; simpl.
  - pose proof (tot_fresh (delete a b) a x (lookup_delete b a)) as Hx. rewrite insert_delete in Hx by done.
    pose proof (tot_fresh (delete a b) a v (lookup_delete b a)) as Hv. rewrite insert_delete_insert in Hv. lia.
  - rewrite tot_fresh by done. lia.
Qed.

Lemma tot_credit b a z : tot (credit b a z) = tot b + z.
Proof. unfold credit. rewrite tot_insert. lia. Qed.

Lemma supply_ok_pair b sup a z :
  a <> sup -> tot b = 2 * balof b sup ->
  tot (credit (credit b a z) sup z) = 2 * balof (credit (credit b a z) sup z) sup.
Proof. intros. rewrite !tot_credit, !balof_credit, decide_True, decide_False by done. lia. Qed.

Theorem supply_step E s o s' r :
  supply_ok E s -> trig_supply E s o = false -> step E s o = (s', r) -> supply_ok E s'.
Proof.
  unfold supply_ok. intros Hok Htr Hst%step_effect.
  destruct Hst as [| | | |n l v k t y z Ht| | |? ? ? ? [Hb _]%block_steps_bal_log]; simpl; try done.
  - apply supply_ok_pair; [by apply N.eqb_neq|done].
  - simpl in Htr. rewrite Ht in Htr. apply supply_ok_pair; [by apply N.eqb_neq|done].
  - (* two accounts other than the counter exchange an amount *)
    apply orb_false_iff in Htr as [?%N.eqb_neq ?%N.eqb_neq].
    rewrite !tot_credit, !balof_credit, !decide_False by done. lia.
  - by rewrite Hb.
Qed.

Definition ongoing_as (s : state) (n : name) (t' : tracker) : Prop :=
  exists t, ongoing s !! n = Some t /\ same_record t t'.

Lemma ongoing_as_refl s n t : ongoing s !! n = Some t -> ongoing_as s n t.
Proof. by exists t. Qed.

Lemma ongoing_as_set s n0 t0 t2 n t' :
  ongoing s !! n0 = Some t0 -> same_record t0 t2 -> <[n0 := t2]> (ongoing s) !! n = Some t' -> ongoing_as s n t'.
Proof. intros ? ? [[<- <-]|[_ ?]]%lookup_insert_Some; [by exists t0|by apply ongoing_as_refl]. Qed.

Lemma block_steps_back s s' : rtc block_step s s' -> forall n t', ongoing s' !! n = Some t' -> ongoing_as s n t'.
Proof.
  apply (rtc_ind_r (fun s' => forall n t', ongoing s' !! n = Some t' -> ongoing_as s n t')); [apply ongoing_as_refl|].
  intros s1 s2 _ [n0 t X Ht _|n0 t Ht _|n0 t Ht _] IH n t'; simpl.
  - intros [[<- <-]|[_ ?]]%lookup_insert_Some; [apply (IH _ _ Ht)|by auto].
  - intros [_ ?]%lookup_delete_Some. auto.
  - intros [_ ?]%lookup_delete_Some. auto.
Qed.

Theorem ongoing_origin E s o s' r n t' :
  step E s o = (s', r) -> ongoing s' !! n = Some t' ->
  ongoing_as s n t' \/
  ongoing s !! n = None /\
  exists a x, (o = Lock a x \/ (o = Redeem a x /\ failed s !! n = None)) /\
              n = x_name (e_tx E x) /\ t_tx t' = x /\ t_owner t' = a /\ accepted E x /\ passed s !! n = None.
Proof.
  intros Hst%step_effect Hn'.
  destruct Hst as [| |a x amt ? -> Hx|a x amt ? -> Hx|n0 l v k t y z Ht|n0 l v idx b t t2 Ht _ _ Hsr| |];
    simpl in Hn'; auto using ongoing_as_refl.
  - apply lookup_insert_Some in Hn' as [[<- <-]|[_ ?]]; [right|by auto using ongoing_as_refl]. split; [done|]. exists a, x.
    repeat split; try done; [by left|]. left. by rewrite Hx.
  - apply lookup_insert_Some in Hn' as [[<- <-]|[_ ?]]; [right|by auto using ongoing_as_refl]. split; [done|]. exists a, x.
    repeat split; try done; [by right|]. right. by rewrite Hx.
  - left. eapply ongoing_as_set; [done| |done]; done.
  - left. by eapply ongoing_as_set.
  - left. by eapply block_steps_back.
Qed.

Definition stores_disjoint (s : state) : Prop :=
  (forall n, is_Some (ongoing s !! n) -> passed s !! n = None /\ failed s !! n = None) /\
  (forall n, is_Some (passed s !! n) -> failed s !! n = None).

Lemma disjoint_new s n t b l :
  stores_disjoint s -> passed s !! n = None -> stores_disjoint (new_at s n t b l).
Proof.
  intros [D1 D2] Hp. split; simpl; intros m Hm; (destruct (decide (m = n)) as [->|Hne]; [by rewrite lookup_delete|]);
    rewrite lookup_delete_ne by done; [rewrite lookup_insert_ne in Hm by done|]; auto.
Qed.

Lemma disjoint_set s n t t' b l :
  stores_disjoint s -> ongoing s !! n = Some t -> stores_disjoint (set_at s n t' b l).
Proof.
  intros [D1 D2] Ht. split; [|done]. simpl. intros m [<-|[_ ?]]%lookup_insert_is_Some; eauto.
Qed.

Lemma disjoint_block_step s s' : stores_disjoint s -> block_step s s' -> stores_disjoint s'.
Proof.
  intros Hd [n t X Ht _|n t Ht _|n t Ht _]; [by eapply disjoint_set|..];
    destruct Hd as [D1 D2]; destruct (D1 n ltac:(by eexists)) as [Hp Hf]; split; simpl; intros m.
  - intros [? ?]%lookup_delete_is_Some. rewrite lookup_insert_ne by done. auto.
  - intros [<-|[_ ?]]%lookup_insert_is_Some; auto.
  - intros [? ?]%lookup_delete_is_Some. rewrite lookup_insert_ne by done. auto.
  - intros Hm. destruct (decide (m = n)) as [->|Hne]; [rewrite Hp in Hm; by destruct Hm|].
    rewrite lookup_insert_ne by done. auto.
Qed.

Lemma disjoint_step E s o s' r : stores_disjoint s -> step E s o = (s', r) -> stores_disjoint s'.
Proof.
  intros Hd []%step_effect; eauto using disjoint_new, disjoint_set.
  eapply rtc_ind_r; eauto using disjoint_block_step.
Qed.

Lemma disjoint_run E ops s : stores_disjoint s -> stores_disjoint (run E s ops).
Proof. apply run_ind. intros. by eapply disjoint_step. Qed.

(* paid out and marked: from here on the tracker is only moved out of the ongoing store, never rewritten *)
Definition settled (t : tracker) : Prop :=
  t_state t = S_RELEASED /\ finalizedb t = true \/ t_state t = S_FAILED /\ failedb t = true.

Lemma undecided_unsettled t : finalizedb t = false -> failedb t = false -> ~ settled t.
Proof. intros ? ? [[_ ?]|[_ ?]]; congruence. Qed.

Lemma advances_unsettled t X : advances t X -> ~ settled t.
Proof. intros [[H _]|[[H _]|[H _]]] [[? _]|[? _]]; by rewrite H in *. Qed.

Definition mint_inv (s : state) : Prop :=
  forall n, n ∈ minted_names (log s) ->
    (exists t, ongoing s !! n = Some t /\ t_state t = S_RELEASED /\ finalizedb t = true) \/
    (ongoing s !! n = None /\ is_Some (passed s !! n)).

Lemma mint_inv_new s n t b l :
  mint_inv s -> ongoing s !! n = None -> passed s !! n = None ->
  minted_names l = minted_names (log s) -> mint_inv (new_at s n t b l).
Proof.
  intros Hinv Ho Hp Hl m Hm. simpl in *. rewrite Hl in Hm. specialize (Hinv m Hm).
  rewrite lookup_insert_ne; [done|]. intros <-. destruct Hinv as [(? & ? & _)|[_ [? ?]]]; congruence.
Qed.

Lemma mint_inv_set s n t t' b l :
  mint_inv s -> ongoing s !! n = Some t -> ~ settled t ->
  (forall m, m ∈ minted_names l ->
     m ∈ minted_names (log s) \/ m = n /\ t_state t' = S_RELEASED /\ finalizedb t' = true) ->
  mint_inv (set_at s n t' b l).
Proof.
  intros Hinv Ht Hns Hl m Hm. simpl. destruct (decide (m = n)) as [->|Hne].
  - rewrite lookup_insert. left. exists t'. split; [done|]. destruct (Hl n Hm) as [Hold|[_ ?]]; [|done].
    destruct Hns. left. destruct (Hinv n Hold) as [(? & ? & ?)|[? _]]; by simplify_eq.
  - rewrite lookup_insert_ne by done. destruct (Hl m Hm) as [?|[? _]]; [by apply Hinv|done].
Qed.

Lemma mint_inv_block_step s s' : mint_inv s -> block_step s s' -> mint_inv s'.
Proof.
  intros Hinv [n t X Ht HX%advances_unsettled|n t Ht Hst|n t Ht Hst].
  - eapply mint_inv_set; eauto.
  - intros m Hm. specialize (Hinv m Hm). simpl. destruct (decide (m = n)) as [->|Hne].
    + right. rewrite lookup_delete, lookup_insert. by eauto.
    + by rewrite lookup_delete_ne, lookup_insert_ne.
  - intros m Hm. specialize (Hinv m Hm). simpl. rewrite lookup_delete_ne; [done|]. intros <-.
    destruct Hinv as [(? & ? & Hr & _)|[? _]]; simplify_eq. by rewrite Hst in Hr.
Qed.

Lemma mint_inv_step E s o s' r : mint_inv s -> step E s o = (s', r) -> mint_inv s'.
Proof.
  intros Hinv [| | | |n l v k t y z Ht Hfin Hfail _ _ Hle%Z.leb_le|n l v idx b t t' Ht Hfin Hfail _| |]%step_effect;
    [done|done| | | | |done|].
  - by apply mint_inv_new.
  - by apply mint_inv_new.
  - apply (mint_inv_set s n t); auto using undecided_unsettled. destruct y; simpl; [|by auto].
    intros m [->|?]%elem_of_cons; auto.
  - apply (mint_inv_set s n t); auto using undecided_unsettled.
  - eapply rtc_ind_r; eauto using mint_inv_block_step.
Qed.

Lemma mint_inv_run E ops : forall s, mint_inv s -> mint_inv (run E s ops).
Proof. revert ops. apply run_ind. intros. by eapply mint_inv_step. Qed.

Definition mint_once (s : state) : Prop := mint_inv s /\ NoDup (minted_names (log s)).

Lemma mint_once_step E s o s' r : mint_once s -> step E s o = (s', r) -> mint_once s'.
Proof.
  intros [Hinv Hnd] Hstep. split; [by eapply mint_inv_step|].
  apply step_effect in Hstep as [| | | |n l v k t [] z Ht Hfin| | |? ? ? ? [_ ->]%block_steps_bal_log]; try done.
  apply NoDup_cons. split; [|done]. intros Hn.
  (* a mint needs a tracker that is not finalized yet, and the tracker of a minted name is *)
  destruct (Hinv n Hn) as [(? & ? & _ & ?)|[? _]]; congruence.
Qed.

Lemma mint_once_run E ops s : mint_once s -> mint_once (run E s ops).
Proof. apply run_ind. intros. by eapply mint_once_step. Qed.

Definition in_store (s : state) (n : name) : Prop :=
  is_Some (ongoing s !! n) \/ is_Some (passed s !! n) \/ is_Some (failed s !! n).

(* A refunded name stays in the stores, which keeps a second redeem of it out.  Once its redeem
   tracker has failed a lock may take the name, hence the test on [t_type]. *)
Definition refund_inv (s : state) : Prop :=
  forall n, n ∈ refunded_names (log s) ->
    in_store s n /\
    forall t, ongoing s !! n = Some t -> t_type t = T_REDEEM -> t_state t = S_FAILED /\ failedb t = true.

Lemma refund_inv_new s n t b l :
  refund_inv s -> (t_type t = T_REDEEM -> ~ in_store s n) ->
  refunded_names l = refunded_names (log s) -> refund_inv (new_at s n t b l).
Proof.
  intros Hinv Hfresh Hl m Hm. simpl in Hm. rewrite Hl in Hm. destruct (Hinv m Hm) as [Hin Hty].
  unfold in_store. simpl. destruct (decide (m = n)) as [->|Hne].
  - rewrite lookup_insert. split; [left; by eexists|]. intros ? [= <-] Hr. by destruct Hfresh.
  - rewrite lookup_insert_ne, lookup_delete_ne by done. done.
Qed.

Lemma refund_inv_set s n t t' b l :
  refund_inv s -> ongoing s !! n = Some t -> ~ settled t -> t_type t' = t_type t ->
  (forall m, m ∈ refunded_names l ->
     m ∈ refunded_names (log s) \/ m = n /\ t_state t' = S_FAILED /\ failedb t' = true) ->
  refund_inv (set_at s n t' b l).
Proof.
  intros Hinv Ht Hns Hty Hl m Hm. unfold in_store. simpl. destruct (decide (m = n)) as [->|Hne].
  - rewrite lookup_insert. split; [left; by eexists|]. intros ? [= <-] Hr.
    destruct (Hl n Hm) as [Hold|[_ ?]]; [|done]. destruct Hns. right. apply (Hinv n Hold); congruence.
  - rewrite lookup_insert_ne by done. destruct (Hl m Hm) as [?|[? _]]; [by apply Hinv|done].
Qed.

Lemma refund_inv_block_step s s' : refund_inv s -> block_step s s' -> refund_inv s'.
Proof.
  intros Hinv [n t X Ht HX%advances_unsettled|n t Ht _|n t Ht _]; [eapply refund_inv_set; eauto|..];
    intros m Hm; destruct (Hinv m Hm) as [Hin Hty]; unfold in_store in *; simpl;
    (destruct (decide (m = n)) as [->|Hne];
      [rewrite lookup_delete, lookup_insert|rewrite lookup_delete_ne, ?lookup_insert_ne by done]);
    (split; [eauto|done]).
Qed.

Lemma refund_inv_step E s o s' r : refund_inv s -> step E s o = (s', r) -> refund_inv s'.
Proof.
  intros Hinv [| | |a x amt n _ _ _ Ho Hp Hf|n l v k t y z Ht Hfin Hfail _ _ Hle%Z.leb_le|n l v idx b t t' Ht Hfin Hfail [Hty _]| |]%step_effect;
    [done|done| | | | |done|].
  - by apply refund_inv_new.
  - apply refund_inv_new; [done| |done]. intros _ [[? ?]|[[? ?]|[? ?]]]; congruence.
  - apply (refund_inv_set s n t); auto using undecided_unsettled. destruct y; simpl; [by auto|].
    intros m [->|?]%elem_of_cons; auto.
  - apply (refund_inv_set s n t); auto using undecided_unsettled.
  - eapply rtc_ind_r; eauto using refund_inv_block_step.
Qed.

Definition refund_once (s : state) : Prop := refund_inv s /\ NoDup (refunded_names (log s)).

Lemma refund_once_step E s o s' r : refund_once s -> step E s o = (s', r) -> refund_once s'.
Proof.
  intros [Hinv Hnd] Hstep. split; [by eapply refund_inv_step|].
  apply step_effect in Hstep as [| | | |n l v k t [] z Ht _ Hfail _ _ _ Hty| | |? ? ? ? [_ ->]%block_steps_bal_log]; try done.
  apply NoDup_cons. split; [|done]. intros Hn.
  destruct (Hinv n Hn) as [_ Hs]. destruct (Hs t Ht Hty). congruence.
Qed.

Lemma refund_once_run E ops s : refund_once s -> refund_once (run E s ops).
Proof. apply run_ind. intros. by eapply refund_once_step. Qed.

Lemma valid_untriggered E s o :
  e_key E (e_supply E) = false -> e_len20 E (e_supply E) = false -> owners_not_supply E s ->
  valid E o = true -> trig_supply E s o = false.
Proof.
  intros Hk Hl Hown Hv. destruct o as [a x|a x|n l v idx b|f t amt|]; simpl in *; [..|done].
  - apply N.eqb_neq. congruence.
  - apply N.eqb_neq. congruence.
  - destruct (ongoing s !! n) as [t|] eqn:Ht; [|done]. apply N.eqb_neq. by eapply Hown.
  - apply andb_true_iff in Hv as [[[Hkf _]%andb_true_iff Hf]%andb_true_iff Ht].
    apply orb_false_iff. split; apply N.eqb_neq; intros ->; [by rewrite Hk in Hkf|by rewrite Hl in Ht].
Qed.

Lemma owners_step E s o s' r :
  e_key E (e_supply E) = false -> owners_not_supply E s -> valid E o = true -> step E s o = (s', r) ->
  owners_not_supply E s'.
Proof.
  intros Hk Hown Hv Hstep m t' Ht'.
  destruct (ongoing_origin _ _ _ _ _ _ _ Hstep Ht') as [(t & Ht & _ & _ & _ & _ & ->)|(_ & a & x & Ho & _ & _ & <- & _)].
  - by eapply Hown.
  - destruct Ho as [->|[-> _]]; simpl in Hv; congruence.
Qed.

Theorem supply_inv_run E ops s :
  e_key E (e_supply E) = false -> e_len20 E (e_supply E) = false ->
  supply_ok E s /\ owners_not_supply E s ->
  supply_ok E (run E s ops) /\ owners_not_supply E (run E s ops).
Proof.
  intros Hk Hl. apply (run_ind E (fun s => supply_ok E s /\ owners_not_supply E s)).
  intros s1 o s' r [Hok Hown] Hv Hstep. split; [|by eapply owners_step].
  eapply supply_step; [done| |done]. by apply valid_untriggered.
Qed.

Lemma end_block_node_independent nl nl' names : forall s, end_block nl s names = end_block nl' s names.
Proof.
  induction names as [|n r IH]; intros s; simpl; [done|].
  change (transition nl s n) with (transition nl' s n). destruct (transition nl' s n) as [s1 o1]. by rewrite IH.
Qed.

Lemma vstep_sim E s o o' : op_sim o o' -> vstep E s o = vstep E s o'.
Proof.
  destruct o, o'; simpl; try (intros ->; done); try done.
  intros ->. unfold vstep. simpl. apply end_block_node_independent.
Qed.

Theorem state_node_independent E ops ops' : Forall2 op_sim ops ops' -> forall s, run E s ops = run E s ops'.
Proof.
  induction 1 as [|o o' r r' Ho _ IH]; intros s; [done|]. simpl. rewrite (vstep_sim E s o o' Ho). apply IH.
Qed.
