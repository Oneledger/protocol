(* All a delivered transaction does to the state — for EVERY Validate, handler and fee program and
   every failure point — is [deliver_v_effect]: it advances the gas counter, closes the session, and
   when it succeeds it replays one session overlay into the block cache.  The deliverer without
   validation is the one whose Validate always accepts: [deliver s h fee] is
   [deliver_v s (Ret true) h fee] by computation, so this covers both. *)
From stdpp Require Import gmap list.
From Coq Require Import ZArith Lia.
From OL Require Import theories.Store theories.Abci proofs.StoreProofs.
Local Open Scope Z_scope.

Section preserved.
  Context (inv : state -> state -> Prop).
  Context (inv_refl : forall s, inv s s) (inv_trans : forall a b c, inv a b -> inv b c -> inv a c).
  Context (inv_data : forall s o, is_data o = true -> inv s (step s o).2).

  Lemma exec_preserves p : forall s, inv s (exec p s).2.
  Proof.
    induction p as [ok|k f IH|k f IH|k v f IH|k p IH]; intros s; cbn [exec]; [apply inv_refl|..].
    - pose proof (inv_data s (Get k) eq_refl) as H. cbn [step] in H.
      destruct (do_get s k) as [r s1]. exact (inv_trans _ _ _ H (IH r s1)).
    - pose proof (inv_data s (Exists_ k) eq_refl) as H. cbn [step] in H.
      destruct (do_exists s k) as [b s1]. exact (inv_trans _ _ _ H (IH b s1)).
    - pose proof (inv_data s (Set_ k v) eq_refl) as H. cbn [step] in H.
      destruct (do_set s k v) as [r s1]. exact (inv_trans _ _ _ H (IH _ s1)).
    - pose proof (inv_data s (Delete k) eq_refl) as H. cbn [step] in H.
      destruct (do_delete s k) as [r s1]. exact (inv_trans _ _ _ H (IH s1)).
  Qed.
End preserved.

Lemma with_gas_id s : with_gas s (gas s) = s.
Proof. destruct s; reflexivity. Qed.

Lemma read_only_gas s o : is_read o = true -> exists g, (step s o).2 = with_gas s g.
Proof.
  intros Hr. destruct o; try discriminate; cbn [step].
  - unfold do_get. destruct (match sess s with Some o => oget o k | None => None end);
      [exists (gas s); symmetry; apply with_gas_id|].
    destruct (cache_get s k) as [[v|] g]; exists g; reflexivity.
  - unfold do_exists. destruct (match sess s with Some o => oget o k | None => None end);
      [exists (gas s); symmetry; apply with_gas_id|].
    destruct (cache_exists s k) as [[] g]; [|exists g; reflexivity].
    destruct (cache_get (with_gas s g) k) as [[v|] g']; exists g'; reflexivity.
  - exists (gas s). symmetry. apply with_gas_id.
Qed.

Definition in_session (s s' : state) : Prop :=
  forall o, sess s = Some o -> exists o' g,
    s' = with_gas (with_sess s (Some o')) g /\ (gas s = None -> g = None).

Lemma in_session_trans a b c : in_session a b -> in_session b c -> in_session a c.
Proof.
  intros Hab Hbc o Ha. destruct (Hab o Ha) as (o1 & g1 & -> & G1).
  destruct (Hbc o1 eq_refl) as (o2 & g2 & -> & G2). exists o2, g2. auto.
Qed.

Lemma exec_in_session p s : in_session s (exec p s).2.
Proof.
  apply exec_preserves; [|exact in_session_trans|]; clear p s.
  - intros s o Hs. exists o, (gas s). rewrite <- Hs, with_sess_same, with_gas_id. auto.
  - intros s o Ha ov Hs. destruct (is_read o) eqn:Hr.
    + destruct (read_only_gas s o Hr) as [g E]. exists ov, g. rewrite <- Hs, with_sess_same.
      split; [exact E|]. intros Hn. rewrite (read_noop s o Hn Hr) in E.
      apply (f_equal gas) in E. rewrite Hn in E. symmetry. exact E.
    + destruct o; try discriminate; cbn [step]; [unfold do_set|unfold do_delete]; rewrite Hs; cbn [snd];
        eexists _, (gas s); (split; [symmetry; exact (with_gas_id (with_sess s _))|auto]).
Qed.

Lemma deliver_v_effect s v h fee : exists o g,
  (deliver_v s v h fee).2 =
  with_sess (with_gas (if (deliver_v s v h fee).1 then with_cache s (replay o (cache s)) else s) g) None
  /\ (gas s = None -> g = None).
Proof.
  unfold deliver_v.
  pose proof (exec_in_session v (with_sess s (Some oempty))) as H0.
  destruct (exec v _) as [[] s1]; cbn [fst snd] in *.
  - pose proof (exec_in_session h s1) as H1. destruct (exec h s1) as [ok s2].
    pose proof (exec_in_session (fee ok) s2) as H2. destruct (exec (fee ok) s2) as [feeOk s3].
    cbn [snd] in *.
    destruct (in_session_trans _ _ _ H0 (in_session_trans _ _ _ H1 H2) _ eq_refl) as (o & g & -> & G).
    exists o, g. split; [destruct (ok && feeOk); reflexivity|exact G].
  - destruct (H0 _ eq_refl) as (o & g & -> & G). exists o, g. split; [reflexivity|exact G].
Qed.

Lemma failed_deliver_v_is_noop s v h fee : sess s = None ->
  (deliver_v s v h fee).1 = false -> exists g, (deliver_v s v h fee).2 = with_gas s g.
Proof.
  intros Hs Hf. destruct (deliver_v_effect s v h fee) as (o & g & E & _). rewrite Hf in E.
  exists g. rewrite E. apply (with_sess_None (with_gas s g)), Hs.
Qed.

Lemma deliver_v_frame s v h fee :
  let s' := (deliver_v s v h fee).2 in
  sess s' = None /\ tree s' = tree s /\ saved s' = saved s /\ version s' = version s /\
  wlog s' = wlog s.
Proof.
  destruct (deliver_v_effect s v h fee) as (o & g & -> & _). destruct (deliver_v s v h fee).1; cbn; auto.
Qed.

Lemma deliver_v_gas_free s v h fee : sess s = None -> gas s = None -> exists o,
  (deliver_v s v h fee).2 = if (deliver_v s v h fee).1 then with_cache s (replay o (cache s)) else s.
Proof.
  intros Hs Hn. destruct (deliver_v_effect s v h fee) as (o & g & -> & G). exists o.
  rewrite (G Hn). destruct (deliver_v s v h fee).1; destruct s; simpl in *; subst; reflexivity.
Qed.

Theorem block_v_without_failed txs : forall s, sess s = None -> gas s = None ->
  let '(res, s') := run_block_v s txs in
  run_block_v s (drop_failed_v txs res) = (only_ok res, s').
Proof.
  induction txs as [|[[v h] fee] txs IH]; intros s Hs Hn; [reflexivity|].
  cbn [run_block_v].
  destruct (deliver_v_gas_free s v h fee Hs Hn) as [o E].
  destruct (deliver_v s v h fee) as [r s1] eqn:Ed. cbn [fst snd] in E.
  assert (sess s1 = None /\ gas s1 = None) as [Hs1 Hn1] by (subst s1; destruct r; auto).
  specialize (IH s1 Hs1 Hn1). destruct (run_block_v s1 txs) as [rs s2]. cbn [drop_failed_v].
  destruct r; cbn [run_block_v only_ok].
  - rewrite Ed, IH. reflexivity.
  - subst s1. exact IH.
Qed.

Definition validated (t : tx) : vtx := (Ret true, t.1, t.2).

Lemma run_block_validated txs : forall s, run_block_v s (map validated txs) = run_block s txs.
Proof.
  induction txs as [|[h fee] txs IH]; intros s; [reflexivity|]. cbn [map validated run_block_v run_block fst snd].
  change (deliver_v s (Ret true) h fee) with (deliver s h fee).
  destruct (deliver s h fee) as [r s1]. rewrite IH. reflexivity.
Qed.

Lemma drop_failed_validated txs : forall res,
  drop_failed_v (map validated txs) res = map validated (drop_failed txs res).
Proof.
  induction txs as [|t txs IH]; intros [|[] res]; cbn [map drop_failed_v drop_failed]; rewrite ?IH; reflexivity.
Qed.

Theorem block_without_failed txs s : sess s = None -> gas s = None ->
  let '(res, s') := run_block s txs in
  run_block s (drop_failed txs res) = (only_ok res, s').
Proof.
  intros Hs Hn. pose proof (block_v_without_failed (map validated txs) s Hs Hn) as H.
  rewrite run_block_validated in H. destruct (run_block s txs) as [res s'].
  rewrite drop_failed_validated, run_block_validated in H. exact H.
Qed.

Theorem invalid_never_processed s v h fee h' fee' : (exec v (with_sess s (Some oempty))).1 = false ->
  deliver_v s v h fee = deliver_v s v h' fee'.
Proof.
  intros Hv. unfold deliver_v. destruct (exec v (with_sess s (Some oempty))) as [vok s1].
  cbn [fst] in Hv. subst vok. reflexivity.
Qed.
