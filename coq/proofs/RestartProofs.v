(* Nothing before Commit touches the durable part ([same_disk]); a crash loses everything else, and
   the next BeginBlock replaces all of that but LastVersion — a ghost: nothing reads it, so [with_lv]
   commutes with everything up to Commit, which overwrites it. *)
From stdpp Require Import gmap list.
From Coq Require Import ZArith Lia.
From OL Require Import theories.Store theories.Abci theories.Restart proofs.StoreProofs
  proofs.AbciProofs.
Local Open Scope Z_scope.

Lemma do_get_lv s lv k : do_get (with_lv s lv) k = ((do_get s k).1, with_lv (do_get s k).2 lv).
Proof.
  unfold do_get. change (cache_get (with_lv s lv) k) with (cache_get s k). cbn [with_lv sess tree].
  destruct (match sess s with Some o => oget o k | None => None end); [reflexivity|].
  destruct (cache_get s k) as [[v|] g]; reflexivity.
Qed.

Lemma do_exists_lv s lv k :
  do_exists (with_lv s lv) k = ((do_exists s k).1, with_lv (do_exists s k).2 lv).
Proof.
  unfold do_exists. change (cache_exists (with_lv s lv) k) with (cache_exists s k). cbn [with_lv sess tree].
  destruct (match sess s with Some o => oget o k | None => None end); [reflexivity|].
  destruct (cache_exists s k) as [[] g]; [|reflexivity].
  change (cache_get (with_gas (with_lv s lv) g) k) with (cache_get (with_gas s g) k).
  destruct (cache_get (with_gas s g) k) as [[v|] g']; reflexivity.
Qed.

Lemma do_set_lv s lv k v :
  do_set (with_lv s lv) k v = ((do_set s k v).1, with_lv (do_set s k v).2 lv).
Proof.
  unfold do_set. cbn [with_lv sess cache gas]. repeat case_match; reflexivity.
Qed.
Lemma do_delete_lv s lv k :
  do_delete (with_lv s lv) k = ((do_delete s k).1, with_lv (do_delete s k).2 lv).
Proof.
  unfold do_delete. cbn [with_lv sess cache gas]. repeat case_match; reflexivity.
Qed.

Lemma exec_lv p : forall s lv, exec p (with_lv s lv) = ((exec p s).1, with_lv (exec p s).2 lv).
Proof.
  induction p as [ok|k f IH|k f IH|k v f IH|k p IH]; intros s lv; cbn [exec].
  - reflexivity.
  - rewrite do_get_lv. destruct (do_get s k) as [r s1]. apply IH.
  - rewrite do_exists_lv. destruct (do_exists s k) as [r s1]. apply IH.
  - rewrite do_set_lv. destruct (do_set s k v) as [r s1]. apply IH.
  - rewrite do_delete_lv. destruct (do_delete s k) as [r s1]. apply IH.
Qed.

Lemma with_sess_lv s lv o : with_sess (with_lv s lv) o = with_lv (with_sess s o) lv.
Proof. reflexivity. Qed.
Lemma with_cache_lv s lv c : with_cache (with_lv s lv) c = with_lv (with_cache s c) lv.
Proof. reflexivity. Qed.
Lemma do_fresh_lv s lv l : do_fresh (with_lv s lv) l = with_lv (do_fresh s l) lv.
Proof. reflexivity. Qed.

Lemma deliver_lv s lv h fee :
  deliver (with_lv s lv) h fee = ((deliver s h fee).1, with_lv (deliver s h fee).2 lv).
Proof.
  unfold deliver. rewrite with_sess_lv, exec_lv.
  destruct (exec h (with_sess s (Some oempty))) as [ok s1]. cbn [fst snd].
  rewrite exec_lv. destruct (exec (fee ok) s1) as [feeOk s2]. cbn [fst snd].
  destruct (ok && feeOk), s2 as [[] ? ? ? ? ? ? ? ?]; reflexivity.
Qed.

Lemma run_block_lv txs : forall s lv,
  run_block (with_lv s lv) txs = ((run_block s txs).1, with_lv (run_block s txs).2 lv).
Proof.
  induction txs as [|[h fee] txs IH]; intros s lv; cbn [run_block]; [reflexivity|].
  rewrite deliver_lv. destruct (deliver s h fee) as [r s1]. cbn [fst snd].
  rewrite IH. destruct (run_block s1 txs) as [rs s2]. reflexivity.
Qed.

Lemma do_commit_lv s lv : do_commit (with_lv s lv) = do_commit s.
Proof. rewrite !do_commit_eq. reflexivity. Qed.

Lemma run_blk_lv s lv b : run_blk (with_lv s lv) b = run_blk s b.
Proof.
  unfold run_blk. rewrite do_fresh_lv, exec_lv.
  destruct (exec (b_begin b) (do_fresh s (b_limit b))) as [r0 s1]. cbn [fst snd].
  rewrite run_block_lv. destruct (run_block s1 (b_txs b)) as [rs s2]. cbn [fst snd].
  rewrite exec_lv. destruct (exec (b_end b) s2) as [r1 s3]. cbn [fst snd].
  rewrite do_commit_lv. reflexivity.
Qed.

Definition same_disk (s s' : state) : Prop :=
  tree s' = tree s /\ saved s' = saved s /\ version s' = version s /\ rot s' = rot s /\
  wlog s' = wlog s.

Lemma same_disk_refl s : same_disk s s.
Proof. repeat split. Qed.
Lemma same_disk_trans a b c : same_disk a b -> same_disk b c -> same_disk a c.
Proof. intros (?&?&?&?&?) (?&?&?&?&?). repeat split; congruence. Qed.

Lemma data_disk s o : is_data o = true -> same_disk s (step s o).2.
Proof.
  intros Ha. destruct (is_read o) eqn:Hr; [destruct (read_only_gas s o Hr) as [g ->]; repeat split|].
  destruct o; try discriminate; cbn [step]; [unfold do_set|unfold do_delete];
    repeat case_match; repeat split.
Qed.

Lemma exec_disk p s : same_disk s (exec p s).2.
Proof. exact (exec_preserves _ same_disk_refl same_disk_trans data_disk p s). Qed.

Lemma run_block_disk txs : forall s, same_disk s (run_block s txs).2.
Proof.
  induction txs as [|[h fee] txs IH]; intros s; cbn [run_block]; [apply same_disk_refl|].
  assert (same_disk s (deliver s h fee).2) as H.
  { destruct (deliver_v_effect s (Ret true) h fee) as (o & g & E & _).
    change (deliver_v s (Ret true) h fee) with (deliver s h fee) in E. rewrite E.
    destruct (deliver s h fee).1; repeat split. }
  destruct (deliver s h fee) as [r s1]. specialize (IH s1). destruct (run_block s1 txs) as [rs s2].
  exact (same_disk_trans _ _ _ H IH).
Qed.

Lemma run_cut_disk s b c : same_disk s (run_cut s b c).
Proof.
  assert (same_disk s (do_fresh s (b_limit b))) as F by repeat split.
  destruct c; cbn [run_cut]; [apply same_disk_refl|..];
    repeat (eapply same_disk_trans; [|apply exec_disk || apply run_block_disk]); exact F.
Qed.

Lemma reopen_same_disk s s' : same_disk s s' -> do_reopen s' = do_reopen s.
Proof. intros (_ & Hs & Hv & Hr & Hw). unfold do_reopen. rewrite Hs, Hv, Hr, Hw. reflexivity. Qed.

Lemma reopen_durable s : durable s -> durable (do_reopen s).
Proof. unfold durable, do_reopen. simpl. intros ->. reflexivity. Qed.

Lemma reopen_disk s s' : durable s -> same_disk s s' -> same_disk s (do_reopen s').
Proof.
  intros Hd Hs. rewrite (reopen_same_disk s s' Hs). unfold same_disk, do_reopen, durable in *. simpl.
  rewrite Hd. repeat split.
Qed.

Theorem info_after_reopen s s' : durable s -> same_disk s s' -> info (do_reopen s') = info s.
Proof.
  intros Hd Hs. rewrite (reopen_same_disk s s' Hs). unfold info, do_reopen, durable in *. simpl.
  rewrite Hd. reflexivity.
Qed.

Theorem run_blk_after_reopen s s' b : durable s -> same_disk s s' ->
  run_blk (do_reopen s') b = run_blk s b.
Proof.
  intros Hd Hs. rewrite (reopen_same_disk s s' Hs), <- (run_blk_lv s 0 b). unfold run_blk.
  (* BeginBlock replaces what a restart has reset, up to LastVersion *)
  replace (do_fresh (do_reopen s) (b_limit b)) with (do_fresh (with_lv s 0) (b_limit b)); [reflexivity|].
  unfold do_fresh, do_reopen, durable in *. simpl. rewrite Hd. reflexivity.
Qed.

Theorem crashy_block b cs : forall s, durable s -> run_blk_crashy s b cs = run_blk s b.
Proof.
  induction cs as [|c cs IH]; intros s Hd; cbn [run_blk_crashy]; [reflexivity|].
  rewrite (reopen_same_disk s _ (run_cut_disk s b c)), IH by (apply reopen_durable, Hd).
  apply run_blk_after_reopen; [exact Hd|apply same_disk_refl].
Qed.

Lemma commit_durable s : rot_ok s -> durable (do_commit s).2 /\ rot_ok (do_commit s).2.
Proof.
  intros (Hr & He & Hc & Hv). unfold durable, rot_ok. rewrite do_commit_eq. cbn. split.
  - (* rotation never deletes the version just saved *)
    apply rotate_latest; assumption.
  - repeat split; try assumption. lia.
Qed.

Lemma run_blk_commit s b : (run_blk s b).2 = (do_commit (run_cut s b CutEnd)).2.
Proof.
  unfold run_blk. cbn [run_cut]. destruct (exec (b_begin b) _) as [r0 s1]. cbn [snd].
  destruct (run_block s1 _) as [rs s2]. cbn [snd]. destruct (exec (b_end b) s2). reflexivity.
Qed.

Lemma run_blk_durable s b : rot_ok s -> durable (run_blk s b).2 /\ rot_ok (run_blk s b).2.
Proof.
  intros Hr. rewrite run_blk_commit. apply commit_durable.
  destruct (run_cut_disk s b CutEnd) as (_ & _ & Ev & Er & _). unfold rot_ok. rewrite Ev, Er. exact Hr.
Qed.

Lemma with_lv_rot_ok s lv : rot_ok s -> rot_ok (with_lv s lv).
Proof. auto. Qed.

Lemma reopen_after_commit s : durable s -> sess s = None -> cache s = oempty -> gas s = None ->
  do_reopen s = with_lv s 0.
Proof.
  intros Hd Hs Hc Hg. unfold do_reopen, with_lv, durable in *. rewrite Hd.
  destruct s; simpl in *; subst; reflexivity.
Qed.

Lemma run_blk_clean s b :
  sess (run_blk s b).2 = None /\ cache (run_blk s b).2 = oempty /\ gas (run_blk s b).2 = None.
Proof. rewrite run_blk_commit. repeat split. Qed.

Theorem crashy_chain bs : forall s lv, durable s -> rot_ok s ->
  (run_chain_crashy (with_lv s lv) bs).1 = (run_chain s (map cb_blk bs)).1 /\
  exists lv', (run_chain_crashy (with_lv s lv) bs).2 = with_lv (run_chain s (map cb_blk bs)).2 lv'.
Proof.
  induction bs as [|cb bs IH]; intros s lv Hd Hr; cbn [run_chain_crashy run_chain map].
  - split; [reflexivity|exists lv; reflexivity].
  - rewrite crashy_block, run_blk_lv by exact Hd.
    destruct (run_blk_durable s (cb_blk cb) Hr) as [Hd1 Hr1].
    destruct (run_blk_clean s (cb_blk cb)) as (Hs1 & Hc1 & Hg1).
    destruct (run_blk s (cb_blk cb)) as [r s1]. cbn [snd] in *.
    assert (exists lv1, (if cb_after cb then do_reopen s1 else s1) = with_lv s1 lv1) as [lv1 ->].
    { destruct (cb_after cb); [exists 0; apply reopen_after_commit; assumption|].
      exists (lastversion s1). destruct s1; reflexivity. }
    destruct (IH s1 lv1 Hd1 Hr1) as [I1 [lv' I2]].
    destruct (run_chain_crashy (with_lv s1 lv1) bs) as [rs s2].
    destruct (run_chain s1 (map cb_blk bs)) as [rs' s2']. cbn [fst snd] in *.
    split; [congruence|exists lv'; exact I2].
Qed.
