From stdpp Require Import gmap list sorting.
From Coq Require Import ZArith Lia.
From OL Require Import theories.Nondet.
Local Open Scope Z_scope.

Global Instance Zle_total : Total Z.le.
Proof. exact Z.le_ge_cases. Qed.
Global Instance Zle_antisym : AntiSymm (=) Z.le.
Proof. exact Z.le_antisymm. Qed.
Global Instance Zle_trans : Transitive Z.le.
Proof. exact Z.le_trans. Qed.

Theorem collect_sort_order_independent (l l' : list Z) : l ≡ₚ l' -> collect_sort l = collect_sort l'.
Proof.
  intros Hp. unfold collect_sort.
  apply (Sorted_unique Z.le); try apply Sorted_merge_sort; try apply _.
  rewrite !merge_sort_Permutation. exact Hp.
Qed.

Theorem build_map_order_independent {V W} (f : Z -> V -> W) (l l' : list (Z * V)) :
  l ≡ₚ l' -> NoDup l.*1 -> build_map f l = build_map f l'.
Proof.
  unfold build_map. intros Hl Hn. apply list_to_map_proper.
  - rewrite <- list_fmap_compose. exact Hn.
  - apply fmap_Permutation, Hl.
Qed.

Theorem accumulate_order_independent {V} (f : Z -> V -> Z) (l l' : list (Z * V)) :
  l ≡ₚ l' -> accumulate f l = accumulate f l'.
Proof.
  apply (foldr_permutation (=) (fun kv acc => f kv.1 kv.2 + acc) 0). intros j1 a1 j2 a2 b _ _ _. lia.
Qed.

Lemma find_unique_spec {V} (p : Z -> V -> bool) (l : list (Z * V)) kv :
  (forall x y, x ∈ l -> y ∈ l -> p x.1 x.2 = true -> p y.1 y.2 = true -> x = y) ->
  find_unique p l = Some kv <-> kv ∈ l /\ p kv.1 kv.2 = true.
Proof.
  intros Hu. unfold find_unique. split.
  - destruct (list_find _ l) as [[i x]|] eqn:E; [|discriminate]. intros [= <-].
    apply list_find_Some in E as (Hi & Hp & _). split; [eapply elem_of_list_lookup_2, Hi|exact Hp].
  - intros [Hin Hp].
    destruct (list_find_elem_of (fun kv => p kv.1 kv.2 = true) l kv Hin Hp) as [[i x] E].
    rewrite E. apply list_find_Some in E as (Hi & Hpx & _). cbn. f_equal.
    apply Hu; [eapply elem_of_list_lookup_2, Hi|..]; assumption.
Qed.

Theorem find_unique_order_independent {V} (p : Z -> V -> bool) (l l' : list (Z * V)) :
  l ≡ₚ l' -> (forall x y, x ∈ l -> y ∈ l -> p x.1 x.2 = true -> p y.1 y.2 = true -> x = y) ->
  find_unique p l = find_unique p l'.
Proof.
  intros Hl Hu. apply option_eq. intros kv. rewrite !find_unique_spec.
  - rewrite Hl. reflexivity.
  - intros x y. rewrite <- !Hl. apply Hu.
  - exact Hu.
Qed.

Lemma range_order_perm {V} (m : gmap Z V) l l' : range_order m l -> range_order m l' -> l ≡ₚ l'.
Proof. unfold range_order. intros -> ->. reflexivity. Qed.

Lemma range_order_NoDup {V} (m : gmap Z V) l : range_order m l -> NoDup l.*1.
Proof. unfold range_order. intros ->. apply NoDup_fst_map_to_list. Qed.
