(* Lemmas about the domain-name model (theories/Ons.v): what each handler that succeeds did to the
   state (the [run_*_Some] lemmas), and what follows for every handler.  "What it did" — the facts
   its guards establish, and the new state — is a relation [*_ok] with one constructor per way to
   succeed: taking a relation apart is one step; the proof term of a nest of exists and /\ grows
   with the square of the statement. *)
From Coq Require Import ZArith Ascii String Lia.
From stdpp Require Import gmap list strings.
From OL Require Import theories.Ons.
Local Open Scope Z_scope.

Definition int64 (z : Z) : Prop := - 2^63 <= z < 2^63.

Lemma wrap64_id z : int64 z -> wrap64 z = z.
Proof. intros H. unfold wrap64. rewrite Z.mod_small; unfold int64 in H; lia. Qed.

Lemma wrap64_range z : - 2^63 <= wrap64 z < 2^63.
Proof. unfold wrap64. pose proof (Z.mod_pos_bound (z + 2^63) (2^64)). lia. Qed.

Lemma bought_expiry from amount perblock ext :
  blocks_bought amount perblock = Some ext -> expiry_overflows from ext = false ->
  0 < perblock -> 0 <= amount -> - 2^63 <= from ->
  wrap64 (from + ext) = from + amount / perblock /\ 0 <= amount / perblock.
Proof.
  unfold blocks_bought, expiry_overflows. intros Hb Ho Hp Ha Hf.
  pose proof (Z.div_pos amount perblock). case_match; [|done]. injection Hb as <-.
  rewrite wrap64_id; unfold int64; lia.
Qed.

Lemma getbal_insert b a x y : getbal (<[a:=x]> b) y = if decide (y = a) then x else getbal b y.
Proof.
  unfold getbal. destruct (decide (y = a)) as [->|Hne].
  - by rewrite lookup_insert.
  - by rewrite lookup_insert_ne.
Qed.

Lemma getbal_debit b a x b' : debit b a x = Some b' ->
  0 <= getbal b a - x /\ forall y, getbal b' y = getbal b y - (if decide (y = a) then x else 0).
Proof.
  unfold debit. destruct (Z.ltb_spec (getbal b a - x) 0); [done|].
  intros [= <-]. split; [done|]. intros y. rewrite getbal_insert.
  destruct (decide (y = a)) as [->|]; lia.
Qed.

Lemma getbal_credit b a x y : getbal (credit b a x) y = getbal b y + (if decide (y = a) then x else 0).
Proof. unfold credit. rewrite getbal_insert. destruct (decide (y = a)) as [->|]; lia. Qed.

Lemma lookup_delete_subs s p n :
  delete_subs s p !! n = if visited s p n then None else reg s !! n.
Proof.
  unfold delete_subs. rewrite map_lookup_imap.
  destruct (reg s !! n); simpl; destruct (visited s p n); reflexivity.
Qed.

Lemma lookup_map_subs s p f r n :
  map_subs s p f r !! n = if visited s p n then f <$> r !! n else r !! n.
Proof.
  unfold map_subs. rewrite map_lookup_imap.
  destruct (r !! n); simpl; destruct (visited s p n); reflexivity.
Qed.

Lemma visited_sub s p n : visited s p n = true -> is_sub_of p n = true.
Proof. unfold visited. by intros [? _]%andb_true_iff. Qed.

Lemma is_sub_of_true p n : is_sub_of p n = true <->
  (length p < length n)%nat /\ drop (length n - length p) n = p.
Proof. unfold is_sub_of. by rewrite andb_true_iff, Nat.ltb_lt, bool_decide_eq_true. Qed.

Lemma is_sub_of_ne p n : is_sub_of p n = true -> p <> n.
Proof. intros [H _]%is_sub_of_true ->. lia. Qed.

Lemma is_sub_of_is_sub p n : (2 <= length p)%nat -> is_sub_of p n = true -> is_sub n = true.
Proof. intros Hp [Hl _]%is_sub_of_true. apply Nat.leb_le. lia. Qed.

Lemma is_sub_of_parent p n : length p = 2%nat -> is_sub_of p n = true ->
  parent_name n = p /\ is_sub n = true.
Proof.
  intros Hp Hs. split; [|apply (is_sub_of_is_sub p); [lia|done]].
  apply is_sub_of_true in Hs as [_ Hd]. by rewrite Hp in Hd.
Qed.

Lemma parent_is_sub_of n : is_sub n = true -> is_sub_of (parent_name n) n = true.
Proof.
  unfold is_sub, parent_name. intros H%Nat.leb_le. apply is_sub_of_true.
  rewrite drop_length. split; [lia|]. f_equal. lia.
Qed.

Inductive create_ok e s a b n u price : state -> Prop :=
  CreateOk b1 x : o_base (e_opts e) < price -> reg s !! n = None -> debit (bal s) a price = Some b1 ->
    name_valid (e_opts e) n = true ->
    (if is_sub n
     then exists p, reg s !! parent_name n = Some p /\ d_owner p = a /\ x = d_expiry p
     else exists ext, blocks_bought (price - o_base (e_opts e)) (o_perblock (e_opts e)) = Some ext /\
            expiry_overflows (e_v e) ext = false /\ x = wrap64 (e_v e + ext)) ->
    create_ok e s a b n u price
      {| reg := <[n := {| d_owner := a; d_benef := Some (default a b); d_created := e_h e;
                          d_updated := e_h e; d_expiry := x; d_active := true; d_onsale := false;
                          d_price := None; d_uri := u |}]> (reg s);
         snap := snap s; bal := b1; pool := pool s + price |}.

Lemma run_create_Some e s a b n uo u price s1 :
  run_create e s a b n uo u price = Some s1 -> create_ok e s a b n u price s1.
Proof.
  unfold run_create. intros H.
  destruct (Z.leb_spec price (o_base (e_opts e))); [done|].
  case_bool_decide as Hn; [done|]. apply eq_None_not_Some in Hn.
  destruct (debit (bal s) a price) as [b1|] eqn:?; [|done].
  destruct (name_valid (e_opts e) n) eqn:?; [|done].
  destruct (negb (u =? "")%string && negb uo); [done|]. simpl in H.
  destruct (if is_sub n then _ else _) as [x|] eqn:Hx; [|done]. injection H as <-.
  constructor; [done..|]. clear -Hx. destruct (is_sub n).
  - destruct (reg s !! parent_name n) as [p|]; [|done]. case_bool_decide; [|done].
    injection Hx as <-. eauto.
  - destruct (blocks_bought _ _) as [ext|]; [|done].
    destruct (expiry_overflows (e_v e) ext) eqn:?; [done|]. injection Hx as <-. eauto.
Qed.

Inductive update_ok e s a b n act u : state -> Prop :=
  UpdateOk d : reg s !! n = Some d -> d_owner d = a ->
    update_ok e s a b n act u
      {| reg := <[n := {| d_owner := d_owner d; d_benef := b; d_created := d_created d;
                          d_updated := e_h e; d_expiry := d_expiry d; d_active := act;
                          d_onsale := d_onsale d; d_price := d_price d; d_uri := u |}]>
                  (if negb act && negb (is_sub n) then map_subs s n (set_active false) (reg s)
                   else reg s);
         snap := snap s; bal := bal s; pool := pool s |}.

Lemma run_update_Some e s a b n act uo u s1 :
  run_update e s a b n act uo u = Some s1 -> update_ok e s a b n act u s1.
Proof.
  unfold run_update. intros H. destruct (reg s !! n) as [d|] eqn:?; [|done].
  destruct (negb (is_changeable d (e_h e))); [done|]. case_bool_decide; [|done].
  destruct (negb (u =? "")%string && negb uo); [done|]. injection H as <-. by constructor.
Qed.

Inductive sell_ok e s a n price (cancel : bool) : state -> Prop :=
  SellOk d : reg s !! n = Some d -> d_owner d = a ->
    sell_ok e s a n price cancel
      {| reg := <[n := if cancel
              then {| d_owner := d_owner d; d_benef := d_benef d; d_created := d_created d;
                      d_updated := e_h e; d_expiry := d_expiry d; d_active := d_active d;
                      d_onsale := false; d_price := None; d_uri := d_uri d |}
              else {| d_owner := d_owner d; d_benef := d_benef d; d_created := d_created d;
                      d_updated := e_h e; d_expiry := d_expiry d; d_active := false;
                      d_onsale := true; d_price := Some price; d_uri := d_uri d |}]> (reg s);
         snap := snap s; bal := bal s; pool := pool s |}.

Lemma run_sell_Some e s a n price cancel s1 :
  run_sell e s a n price cancel = Some s1 -> sell_ok e s a n price cancel s1.
Proof.
  unfold run_sell. intros H. destruct (price <=? o_perblock (e_opts e)); [done|].
  destruct (price <? 0); [done|]. destruct (is_sub n); [done|].
  destruct (reg s !! n) as [d|] eqn:?; [|done]. case_bool_decide; [|done].
  destruct (negb (is_changeable d (e_h e))); [done|]. destruct (is_expired d (e_h e)); [done|].
  injection H as <-. by constructor.
Qed.

Inductive purchase_pay e s d buyer offer : gmap addr Z -> Z -> Z -> Prop :=
| PayOnSale q b1 ext : sale_branch e d = true -> d_price d = Some q -> q <= offer ->
    debit (bal s) buyer q = Some b1 ->
    blocks_bought (offer - q) (o_perblock (e_opts e)) = Some ext ->
    purchase_pay e s d buyer offer (credit b1 (d_owner d) q) (offer - q) ext
| PayExpired ext : sale_branch e d = false -> d_expiry d < e_v e -> o_base (e_opts e) <= offer ->
    blocks_bought (offer - o_base (e_opts e)) (o_perblock (e_opts e)) = Some ext ->
    purchase_pay e s d buyer offer (bal s) offer ext.

Inductive purchase_ok e s buyer acct n offer : state -> Prop :=
  PurchaseOk d b2 remain ext b3 : reg s !! n = Some d -> is_sub n = false ->
    purchase_pay e s d buyer offer b2 remain ext ->
    expiry_overflows (Z.max (d_expiry d) (e_v e)) ext = false ->
    debit b2 buyer remain = Some b3 ->
    purchase_ok e s buyer acct n offer
      {| reg := <[n := {| d_owner := buyer; d_benef := acct; d_created := d_created d;
                          d_updated := e_v e;
                          d_expiry := wrap64 (Z.max (d_expiry d) (e_v e) + ext);
                          d_active := true; d_onsale := false; d_price := None;
                          d_uri := "" |}]> (delete_subs s n);
         snap := snap s; bal := b3; pool := pool s + remain |}.

Lemma run_purchase_Some e s buyer acct n offer s1 :
  run_purchase e s buyer acct n offer = Some s1 -> purchase_ok e s buyer acct n offer s1.
Proof.
  unfold run_purchase. intros H. destruct (reg s !! n) as [d|] eqn:Hd; [|done].
  replace (if e_v e <? d_expiry d then d_expiry d else e_v e) with (Z.max (d_expiry d) (e_v e)) in H
    by (destruct (Z.ltb_spec (e_v e) (d_expiry d)); lia).
  destruct (negb (d_onsale d) && (e_v e <=? d_expiry d)) eqn:Hgate; [done|].
  destruct (is_sub n) eqn:?; [done|].
  destruct (if sale_branch e d then _ else _) as [[[b2 rm] ext]|] eqn:Hpay; [|done].
  destruct (expiry_overflows _ ext) eqn:?; [done|].
  destruct (debit b2 buyer rm) as [b3|] eqn:?; [|done]. injection H as <-.
  apply PurchaseOk with (d := d) (b2 := b2); [done..| |done|done]. clear -Hpay Hgate.
  destruct (sale_branch e d) eqn:Hsb.
  - destruct (d_price d) as [q|] eqn:?; [|done]. destruct (Z.leb_spec q offer); [|done]. simpl in Hpay.
    destruct (debit (bal s) buyer q) as [b1|] eqn:?; [|done].
    destruct (blocks_bought _ _) as [x|] eqn:?; [|done]. injection Hpay as <- <- <-. by econstructor.
  - destruct (Z.ltb_spec offer (o_base (e_opts e))); [done|].
    destruct (blocks_bought _ _) as [x|] eqn:?; [|done]. injection Hpay as <- <- <-.
    constructor; [done| |done..].
    unfold sale_branch in Hsb. destruct (d_onsale d), (Z.leb_spec (e_v e) (d_expiry d)); done.
Qed.

Inductive send_ok s : state -> Prop :=
  SendOk b1 : send_ok s {| reg := reg s; snap := snap s; bal := b1; pool := pool s |}.

Lemma run_send_Some e s a n amount s1 : run_send e s a n amount = Some s1 -> send_ok s s1.
Proof. unfold run_send. intros H. repeat case_match; try done. injection H as <-. constructor. Qed.

Inductive renew_ok e s a n price : state -> Prop :=
  RenewOk d b1 ext : reg s !! n = Some d -> d_owner d = a -> is_sub n = false ->
    e_v e <= d_expiry d -> o_perblock (e_opts e) < price -> debit (bal s) a price = Some b1 ->
    blocks_bought price (o_perblock (e_opts e)) = Some ext ->
    expiry_overflows (d_expiry d) ext = false ->
    renew_ok e s a n price
      {| reg := <[n := {| d_owner := d_owner d; d_benef := d_benef d; d_created := d_created d;
                          d_updated := e_h e; d_expiry := wrap64 (d_expiry d + ext);
                          d_active := d_active d; d_onsale := d_onsale d; d_price := d_price d;
                          d_uri := d_uri d |}]>
                  (map_subs s n (set_expiry (wrap64 (d_expiry d + ext))) (reg s));
         snap := snap s; bal := b1; pool := pool s + price |}.

Lemma run_renew_Some e s a n price s1 :
  run_renew e s a n price = Some s1 -> renew_ok e s a n price s1.
Proof.
  unfold run_renew, is_expired. intros H.
  destruct (Z.leb_spec price (o_perblock (e_opts e))); [done|]. destruct (is_sub n) eqn:?; [done|].
  destruct (reg s !! n) as [d|] eqn:?; [|done]. destruct (negb (is_changeable d (e_h e))); [done|].
  destruct (Z.ltb_spec (d_expiry d) (e_v e)); [done|]. case_bool_decide; [|done]. simpl in H.
  destruct (debit (bal s) a price) as [b1|] eqn:?; [|done].
  destruct (blocks_bought _ _) as [ext|] eqn:?; [|done].
  destruct (expiry_overflows _ ext) eqn:?; [done|]. injection H as <-. by constructor.
Qed.

Inductive deletesub_ok s a n : state -> Prop :=
| DeleteOne p : is_sub n = true -> reg s !! parent_name n = Some p -> d_owner p = a ->
    deletesub_ok s a n {| reg := delete n (reg s); snap := snap s; bal := bal s; pool := pool s |}
| DeleteAll p : is_sub n = false -> reg s !! n = Some p -> d_owner p = a ->
    deletesub_ok s a n {| reg := delete_subs s n; snap := snap s; bal := bal s; pool := pool s |}.

Lemma run_deletesub_Some e s a n s1 : run_deletesub e s a n = Some s1 -> deletesub_ok s a n s1.
Proof.
  unfold run_deletesub. intros H. destruct (is_sub n) eqn:?.
  all: destruct (reg s !! _) as [p|] eqn:?; [|done].
  all: destruct (negb (is_changeable p (e_h e))); [done|]; case_bool_decide; [|done]; simpl in H.
  - destruct (reg s !! n); [|done]. injection H as <-. by eapply DeleteOne.
  - injection H as <-. by eapply DeleteAll.
Qed.

Lemma run_op_Some e s o s1 : run_op e s o = Some s1 ->
  match o with
  | Create a b n _ u p => create_ok e s a b n u p s1
  | Update a b n act _ u => update_ok e s a b n act u s1
  | Sell a n p c => sell_ok e s a n p c s1
  | Purchase a b n p => purchase_ok e s a b n p s1
  | Send _ _ _ => send_ok s s1
  | Renew a n p => renew_ok e s a n p s1
  | DeleteSub a n => deletesub_ok s a n s1
  end.
Proof.
  destruct o; simpl;
    eauto using run_create_Some, run_update_Some, run_sell_Some, run_purchase_Some, run_send_Some,
      run_renew_Some, run_deletesub_Some.
Qed.

Lemma fee_step_spec s t s2 : fee_step s t = Some s2 ->
  exists f, t_fee t = Some f /\ reg s2 = reg s /\ snap s2 = snap s /\ pool s2 = pool s + f /\
    forall a, getbal (bal s2) a = getbal (bal s) a - (if decide (a = t_payer t) then f else 0).
Proof.
  unfold fee_step. destruct (t_fee t) as [f|]; [|done].
  destruct (debit (bal s) (t_payer t) f) as [b|] eqn:Hb; [|done].
  intros [= <-]. exists f. by apply getbal_debit in Hb as [_ Hb].
Qed.

Lemma deliver_cases s t (P : state * bool -> Prop) : P (s, false) ->
  (forall s1 s2, run_op (t_env t) s (t_op t) = Some s1 -> fee_step s1 t = Some s2 ->
     reg s2 = reg s1 -> P (s2, true)) -> P (deliver s t).
Proof.
  intros Hfail Hok. unfold deliver. destruct (negb (validate t)); [done|].
  destruct (run_op (t_env t) s (t_op t)) as [s1|]; [|done].
  destruct (fee_step s1 t) as [s2|] eqn:Hfee; [|done].
  eapply Hok; [done..|]. by apply fee_step_spec in Hfee as (f & _ & ? & _).
Qed.

Definition owns (s : state) (a : addr) (n : name) : Prop :=
  exists d, reg s !! n = Some d /\ d_owner d = a.
Definition authority (s : state) (a : addr) (n : name) : Prop :=
  owns s a n \/ exists p, is_sub_of p n = true /\ owns s a p.

Definition paid_purchase_of (s s' : state) (t : tx) (p : name) : Prop :=
  exists buyer acct offer d f, t_op t = Purchase buyer acct p offer /\ reg s !! p = Some d /\
   t_fee t = Some f /\
   ((sale_branch (t_env t) d = true /\ exists q, d_price d = Some q /\ q <= offer /\
      (forall a, getbal (bal s') a = getbal (bal s) a + (if decide (a = d_owner d) then q else 0)
                  - (if decide (a = buyer) then offer else 0) - (if decide (a = t_payer t) then f else 0)) /\
      pool s' = pool s + (offer - q) + f)
    \/ (sale_branch (t_env t) d = false /\ d_expiry d < e_v (t_env t) /\
      o_base (e_opts (t_env t)) <= offer /\
      (forall a, getbal (bal s') a = getbal (bal s) a - (if decide (a = buyer) then offer else 0)
                  - (if decide (a = t_payer t) then f else 0)) /\
      pool s' = pool s + offer + f)).

Lemma purchase_accounts s t s1 s' buyer acct n offer :
  fee_step s1 t = Some s' -> t_op t = Purchase buyer acct n offer ->
  purchase_ok (t_env t) s buyer acct n offer s1 -> paid_purchase_of s s' t n.
Proof.
  intros Hfee Ht Hp. destruct Hp as [d b2 rm ext b3 Hd _ Hpay _ [_ Hb3]%getbal_debit].
  apply fee_step_spec in Hfee as (f & Hf & _ & _ & Hpool & Hbal). simpl in *.
  exists buyer, acct, offer, d, f. split_and!; [done..|].
  destruct Hpay as [q b1 ext Hsb Hq Hle [_ Hb1]%getbal_debit _|ext Hsb Hexp Hbase _]; [left|right].
  - split; [done|]. exists q. split_and!; [done..| |lia]. intros y.
    rewrite Hbal, Hb3, getbal_credit, Hb1. destruct (decide (y = buyer)); lia.
  - split_and!; [done..| |lia]. intros y. by rewrite Hbal, Hb3.
Qed.

Definition change_justified (s s' : state) (t : tx) (n : name) : Prop :=
  authority s (signer (t_op t)) n
  \/ (exists b uo u price, t_op t = Create (signer (t_op t)) b n uo u price /\ reg s !! n = None /\
        is_sub n = false /\ owns s' (signer (t_op t)) n)
  \/ paid_purchase_of s s' t n
  \/ (exists p, is_sub_of p n = true /\ reg s' !! n = None /\ paid_purchase_of s s' t p).

Definition targets (o : op) (n : name) : Prop :=
  match o with
  | Purchase _ _ p _ => p = n \/ is_sub_of p n = true
  | Create _ _ p _ _ _ => p = n
  | _ => False
  end.

Lemma justified_targets s s' t n :
  change_justified s s' t n -> authority s (signer (t_op t)) n \/ targets (t_op t) n.
Proof.
  intros [?|[(? & ? & ? & ? & -> & _)|[(? & ? & ? & ? & ? & -> & _)
         |(? & ? & _ & (? & ? & ? & ? & ? & -> & _))]]]; simpl; auto.
Qed.

Fixpoint history_justified (s : state) (evs : list event) (n : name) : Prop :=
  match evs with
  | [] => False
  | Tx t :: rest =>
      (reg (deliver s t).1 !! n <> reg s !! n /\ (deliver s t).2 = true /\
         change_justified s (deliver s t).1 t n)
      \/ history_justified (deliver s t).1 rest n
  | EndBlock :: rest => history_justified (end_block s) rest n
  end.

Lemma insert_changed (r r' : gmap name domain) n0 d' n :
  <[n0:=d']> r' !! n <> r !! n -> n = n0 \/ r' !! n <> r !! n.
Proof.
  destruct (decide (n = n0)) as [->|]; [by left|]. rewrite lookup_insert_ne by done. by right.
Qed.

Lemma map_subs_authority s a p f n : owns s a p ->
  map_subs s p f (reg s) !! n <> reg s !! n -> authority s a n.
Proof.
  rewrite lookup_map_subs. intros Ho Hn. right. exists p.
  destruct (visited s p n) eqn:Hv; [|done]. by apply visited_sub in Hv.
Qed.

Lemma delete_subs_changed s p n : delete_subs s p !! n <> reg s !! n ->
  is_sub_of p n = true /\ delete_subs s p !! n = None.
Proof.
  rewrite lookup_delete_subs. destruct (visited s p n) eqn:Hv; [|done]. by apply visited_sub in Hv.
Qed.

Lemma run_op_authorised s t s1 s' n : run_op (t_env t) s (t_op t) = Some s1 ->
  fee_step s1 t = Some s' -> reg s1 !! n <> reg s !! n -> change_justified s s' t n.
Proof.
  destruct t as [o e payer fee sok nb]. simpl. intros Hop%run_op_Some Hfee Hn.
  pose proof Hfee as (f & _ & Hreg & _)%fee_step_spec.
  destruct o as [a b n0 uo u p|a b n0 act uo u|a n0 p c|a b n0 p|a n0 p|a n0 p|a n0].
  - (* Create *) destruct Hop as [b1 x _ Hnone _ _ Hx]. simpl in Hn.
    apply insert_changed in Hn as [->|]; [|done]. destruct (is_sub n0) eqn:Hs.
    + destruct Hx as (q & Hq & Ho & _). left; right. exists (parent_name n0).
      split; [by apply parent_is_sub_of|by exists q].
    + right; left. exists b, uo, u, p. split_and!; [done..|].
      eexists. rewrite Hreg. simpl. by rewrite lookup_insert.
  - (* Update *) destruct Hop as [d Hd Ho]. simpl in Hn. left.
    apply insert_changed in Hn as [->|Hn]; [left; by exists d|].
    destruct (negb act && negb (is_sub n0)); [|done]. eapply map_subs_authority; [by exists d|done].
  - (* Sell *) destruct Hop as [d Hd Ho]. simpl in Hn. left; left.
    apply insert_changed in Hn as [->|]; [by exists d|done].
  - (* Purchase *) assert (Hpp := purchase_accounts s _ _ _ _ _ _ _ Hfee eq_refl Hop).
    destruct Hop. simpl in Hn.
    apply insert_changed in Hn as [->|Hn]; [by right; right; left|].
    right; right; right. exists n0. rewrite Hreg. simpl.
    apply delete_subs_changed in Hn as [? Hn]. split_and!; [done| |done].
    rewrite lookup_insert_ne; [done|]. intros ->. by eapply is_sub_of_ne.
  - (* Send *) by destruct Hop.
  - (* Renew *) destruct Hop as [d b1 ext Hd Ho _ _ _ _ _ _]. simpl in Hn. left.
    apply insert_changed in Hn as [->|Hn]; [left; by exists d|].
    eapply map_subs_authority; [by exists d|done].
  - (* DeleteSub *) left; right. destruct Hop as [q Hs Hq Ho|q Hs Hq Ho]; simpl in Hn.
    + destruct (decide (n = n0)) as [->|]; [|by rewrite lookup_delete_ne in Hn].
      exists (parent_name n0). split; [by apply parent_is_sub_of|by exists q].
    + exists n0. split; [by destruct (delete_subs_changed _ _ _ Hn)|by exists q].
Qed.

Definition listing_ok (s : state) (o : op) (n : name) (d' : domain) : Prop :=
  (exists d, reg s !! n = Some d /\ d_onsale d = true /\ d_owner d = d_owner d' /\
             d_price d = d_price d')
  \/ (exists price, o = Sell (d_owner d') n price false /\ owns s (d_owner d') n /\
                    d_price d' = Some price).

Fixpoint listed_by (s : state) (evs : list event) (n : name) (a : addr) (q : option Z) : Prop :=
  match evs with
  | [] => False
  | Tx t :: rest =>
      (exists price, t_op t = Sell a n price false /\ owns s a n /\ q = Some price)
      \/ listed_by (deliver s t).1 rest n a q
  | EndBlock :: rest => listed_by (end_block s) rest n a q
  end.

Lemma map_subs_listing s o p f n d' :
  map_subs s p f (reg s) !! n = Some d' -> d_onsale d' = true ->
  (forall d, d_onsale (f d) = d_onsale d /\ d_owner (f d) = d_owner d /\ d_price (f d) = d_price d) ->
  listing_ok s o n d'.
Proof.
  rewrite lookup_map_subs. intros Hn Hon Hf. left.
  destruct (visited s p n); [|by exists d'].
  destruct (reg s !! n) as [d|]; [|done]. injection Hn as <-.
  destruct (Hf d) as (? & ? & ?). exists d. split_and!; congruence.
Qed.

Lemma run_op_listing e s o s1 : run_op e s o = Some s1 ->
  forall n d', reg s1 !! n = Some d' -> d_onsale d' = true -> listing_ok s o n d'.
Proof.
  intros H%run_op_Some n d' Hn Hon.
  assert (Hkept : reg s !! n = Some d' -> listing_ok s o n d') by (left; by exists d').
  destruct o as [a b n0 uo u p|a b n0 act uo u|a n0 p c|a b n0 p|a n0 p|a n0 p|a n0].
  - (* Create *) destruct H. simpl in Hn.
    apply lookup_insert_Some in Hn as [[_ <-]|[_ Hn]]; [done|auto].
  - (* Update *) destruct H as [d Hd _]. simpl in Hn.
    apply lookup_insert_Some in Hn as [[<- <-]|[_ Hn]]; [left; by exists d|].
    destruct (negb act && negb (is_sub n0)); [|auto]. by eapply map_subs_listing.
  - (* Sell *) destruct H as [d Hd Ho]. simpl in Hn.
    apply lookup_insert_Some in Hn as [[<- <-]|[_ Hn]]; [|auto]. destruct c; [done|].
    right. exists p. simpl. rewrite Ho. split_and!; [done| |done]. by exists d.
  - (* Purchase *) destruct H. simpl in Hn.
    apply lookup_insert_Some in Hn as [[_ <-]|[_ Hn]]; [done|].
    rewrite lookup_delete_subs in Hn. destruct (visited s n0 n); [done|auto].
  - (* Send *) destruct H. auto.
  - (* Renew *) destruct H as [d]. simpl in Hn.
    apply lookup_insert_Some in Hn as [[<- <-]|[_ Hn]]; [left; by exists d|].
    by eapply map_subs_listing.
  - (* DeleteSub *) destruct H; simpl in Hn.
    + apply lookup_delete_Some in Hn as [_ Hn]. auto.
    + rewrite lookup_delete_subs in Hn. destruct (visited s n0 n); [done|auto].
Qed.
