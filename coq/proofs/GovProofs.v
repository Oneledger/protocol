(* GovProofs.v — lemmas about the governance model (theories/Gov.v).

   A successful handler rewrites the record of one proposal id, or nothing.  The inversion lemmas [h_*_Some] say what
   each handler checked and wrote; [tx_step] lists the ways a record can change; [step_evolve] says that every
   operation moves every record along [tx_step]s ([step_end]: EndBlock moves them along [end_step]s).  The invariants
   and the lifecycle theorems are facts about single record steps, carried to histories by [run_ind] / [hrun_ind]. *)
From stdpp Require Import gmap list.
From Coq Require Import ZArith Lia.
From OL Require Import theories.Gov.
Local Open Scope Z_scope.

Lemma guard_inv {A} (b : bool) (r : option A) x : (if b then None else r) = Some x -> b = false /\ r = Some x.
Proof. destruct b; [discriminate | auto]. Qed.
Lemma guard_dec {A} P `{Decision P} (r : option A) x :
  (if negb (bool_decide P) then None else r) = Some x -> P /\ r = Some x.
Proof. by intros [?%negb_false_iff%bool_decide_eq_true ?]%guard_inv. Qed.
Lemma cguard_Some (b : bool) (r : hres) x : cguard b r = Some x -> r = Some x.
Proof. destruct b; [auto | discriminate]. Qed.

Lemma fold_add_bal_frame (l : list N) x s :
  g_props (fold_left (fun acc v => add_bal acc v x) l s) = g_props s /\
  g_h (fold_left (fun acc v => add_bal acc v x) l s) = g_h s.
Proof. revert s. induction l as [|a l IH]; intros s; [auto | exact (IH (add_bal s a x))]. Qed.

Lemma distribute_frame s e id p d s' paid bad :
  distribute s e id p d = (s', paid, bad) -> g_props s' = g_props s /\ g_h s' = g_h s.
Proof. intros E. change s' with (s', paid, bad).1.1. rewrite <- E. apply fold_add_bal_frame. Qed.

Lemma distribute_paid_le s e id p d : e_vals e <> [] -> 0 <= p_total p -> 0 <= d_burn d ->
  (distribute s e id p d).1.2 <= p_total p.
Proof.
  intros Hne Ht Hb. unfold distribute. cbn [fst snd].
  assert (0 < Z.of_nat (length (e_vals e))) as Hn by (destruct (e_vals e); [done | simpl; lia]).
  pose proof (Z.mul_div_le (share (p_total p) (d_val d)) _ Hn).
  assert (0 <= share (p_total p) (d_burn d)) by (apply Z.div_pos; lia). lia.
Qed.

Lemma elem_of_ids_where f m id : id ∈ ids_where f m <-> exists p, m !! id = Some p /\ f p = true.
Proof.
  unfold ids_where. rewrite elem_of_list_fmap. split.
  - intros ([k p] & -> & [Hf H%elem_of_map_to_list]%elem_of_list_filter). eauto.
  - intros (p & Hp & Hf). exists (id, p). split; [done|]. apply elem_of_list_filter. by split; [|apply elem_of_map_to_list].
Qed.

Lemma h_create_Some s e id ty pr amt fdl vdl goal pass cv s' ev :
  h_create s e id ty pr amt fdl vdl goal pass cv = Some (s', ev) ->
  g_props s !! id = None /\
  o_init (opts_of e ty) <= amt < o_goal (opts_of e ty) /\ goal = o_goal (opts_of e ty) /\ pass = o_pass (opts_of e ty) /\
  vdl - fdl = o_vdelta (opts_of e ty) /\ g_h s < fdl /\ amt <= bal s pr /\
  s' = add_bal (set_prop s id (add_funds (g_blk s)
         (mkP SActive StFunding OInProgress ty pr fdl vdl goal pass 0 [] [] (-1) [] 0) pr amt)) pr (- amt) /\
  ev = [EvContrib id pr amt].
Proof.
  unfold h_create. cbv zeta. intros H.
  apply guard_inv in H as [G1%Z.ltb_ge H]. apply guard_inv in H as [G2%Z.leb_gt H].
  apply guard_inv in H as [G3%negb_false_iff%Z.eqb_eq H]. apply guard_inv in H as [G4%negb_false_iff%Z.eqb_eq H].
  apply guard_inv in H as [G5%negb_false_iff%Z.eqb_eq H]. apply guard_inv in H as [G6%Z.leb_gt H]. apply guard_inv in H as [_ H].
  destruct (g_props s !! id); [discriminate|]. apply guard_inv in H as [G7%Z.ltb_ge [= <- <-]].
  repeat split; auto; lia.
Qed.

Lemma create_existing s t id ty pr amt fdl vdl goal pass cv :
  t_op t = OCreate id ty pr amt fdl vdl goal pass cv -> (1 <= rank_of s id)%nat -> step s t = (s, false, []).
Proof.
  intros Eo Hr. unfold step. rewrite Eo.
  destruct (h_create s (t_env t) id ty pr amt fdl vdl goal pass cv) as [[s1 ev]|] eqn:E; [|by destruct (cur_ok t)].
  apply h_create_Some in E as [E _]. unfold rank_of in Hr. rewrite E in Hr. lia.
Qed.

Lemma h_fund_Some s e id f amt s' ev : h_fund s e id f amt = Some (s', ev) ->
  exists p, g_props s !! id = Some p /\ 0 < amt /\ p_store p = SActive /\ g_h s <= p_fdl p /\ p_status p = StFunding /\
    amt <= bal s f /\
    s' = add_bal (set_prop s id (add_funds (g_blk s)
           (if p_goal p <=? amt + p_total p
            then with_voting (g_blk s) p (g_h s + o_vdelta (opts_of e (p_type p))) (snapshot (e_active e) (p_votes p))
            else p) f amt)) f (- amt) /\
    ev = [EvContrib id f amt].
Proof.
  unfold h_fund. intros [G1%Z.leb_gt H]%guard_inv. destruct (g_props s !! id) as [p|]; [|discriminate].
  apply guard_dec in H as [G2 H]. apply guard_inv in H as [G3%Z.ltb_ge H]. apply guard_dec in H as [G4 H].
  apply guard_inv in H as [G5%Z.ltb_ge [= <- <-]]. exists p. repeat split; auto; lia.
Qed.

Lemma h_vote_Some s e id v o s' ev : h_vote s e id v o = Some (s', ev) ->
  exists p vs, g_props s !! id = Some p /\ p_store p = SActive /\ p_status p = StVoting /\ g_h s <= p_vdl p /\
    v ∈ e_vals e /\ vote_update v o (p_votes p) = Some vs /\ p_snapblk p <> g_blk s /\
    s' = set_prop s id (match tally vs (p_pass p) with
                        | RPassed => with_stage (with_votes p vs) SPassed StCompleted OCompletedYes
                        | RFailed => with_stage (with_votes p vs) SFailed StCompleted OCompletedNo
                        | RTBD => with_votes p vs
                        end) /\
    ev = [].
Proof.
  unfold h_vote. destruct (g_props s !! id) as [p|]; [|discriminate]. intros [G1 H]%guard_dec.
  apply guard_dec in H as [G2 H]. apply guard_inv in H as [G3%Z.ltb_ge H]. apply guard_dec in H as [G4 H].
  destruct (vote_update v o (p_votes p)) as [vs|] eqn:Ev; [|discriminate].
  apply guard_inv in H as [G5%Z.eqb_neq [= <- <-]]. exists p, vs. repeat split; auto.
Qed.

Lemma h_cancel_Some s id pr s' ev : h_cancel s id pr = Some (s', ev) ->
  exists p, g_props s !! id = Some p /\ p_store p = SActive /\ p_status p = StFunding /\ g_h s <= p_fdl p /\
    p_proposer p = pr /\ s' = set_prop s id (with_stage p SFailed StCompleted OCancelled) /\ ev = [].
Proof.
  unfold h_cancel. destruct (g_props s !! id) as [p|]; [|discriminate]. intros [G1 H]%guard_dec.
  apply guard_dec in H as [G2 H]. apply guard_inv in H as [G3%Z.ltb_ge H].
  apply guard_inv in H as [G4%negb_false_iff%N.eqb_eq [= <- <-]]. exists p. repeat split; auto.
Qed.

Lemma h_expire_Some s id s' ev : h_expire s id = Some (s', ev) ->
  exists p, g_props s !! id = Some p /\ p_store p = SActive /\ p_status p = StVoting /\ p_vdl p < g_h s /\
    s' = set_prop s id (with_stage p SFailed StCompleted OInsufVotes) /\ ev = [].
Proof.
  unfold h_expire. destruct (g_props s !! id) as [p|]; [|discriminate]. intros [G1 H]%guard_dec.
  apply guard_dec in H as [G2 H]. apply guard_inv in H as [G3%Z.leb_gt [= <- <-]]. exists p. repeat split; auto.
Qed.

Lemma h_withdraw_Some s id f amt ben s' ev : h_withdraw s id f amt ben = Some (s', ev) ->
  exists p p1 cur, g_props s !! id = Some p /\ (p_store p = SActive \/ p_store p = SFailed) /\ 0 < amt /\
    (refundable (p_outcome p) = true /\ p1 = p \/
     refundable (p_outcome p) = false /\ p_total p < p_goal p /\ p_fdl p < g_h s /\
     p1 = with_stage p SFailed StCompleted OInsufFunds) /\
    funded_visible (g_blk s) p1 f = true /\ alookup f (p_indiv p1) = Some cur /\ amt <= cur /\ amt <= p_total p1 /\
    s' = add_bal (set_prop s id (with_funds p1 (p_total p1 - amt) (aupd f (- amt) (p_indiv p1)))) ben amt /\
    ev = [EvRefund id f ben amt].
Proof.
  unfold h_withdraw. destruct (g_props s !! id) as [p|]; [|discriminate].
  intros [G1%negb_false_iff%orb_prop H]%guard_inv. rewrite !bool_decide_eq_true in G1. apply guard_inv in H as [G2%Z.leb_gt H].
  destruct (if refundable (p_outcome p) then _ else _) as [p1|] eqn:E1 in H; [|discriminate].
  destruct (funded_visible (g_blk s) p1 f) eqn:G3; [|discriminate].
  destruct (alookup f (p_indiv p1)) as [cur|] eqn:El; [|discriminate].
  apply guard_inv in H as [G4%Z.ltb_ge H]. apply guard_inv in H as [G5%Z.ltb_ge [= <- <-]].
  exists p, p1, cur. repeat split; auto; try lia.
  destruct (refundable (p_outcome p)); [injection E1 as <-; auto|].
  apply guard_inv in E1 as [[G6%Z.leb_gt G7%Z.leb_gt]%orb_false_iff [= <-]]. auto.
Qed.

Lemma store_cases {A} (st : store) (a b c x : A) :
  match st with SActive => a | SPassed | SFailed => b | SFinalized | SFinFailed => c end = x ->
  st = SActive /\ a = x \/ (st = SPassed \/ st = SFailed) /\ b = x \/ (st = SFinalized \/ st = SFinFailed) /\ c = x.
Proof. destruct st; auto 6. Qed.

Definition fin_result (e : env) (id : N) (p p' : prec) (ev : list event) : Prop :=
  match tally (p_votes p) (p_pass p) with
  | RPassed =>
      if bool_decide (p_type p = TConfig) && bool_decide (id ∈ e_cfgfail e)
      then p' = fin_move p SPassed SFinFailed 16 /\ ev = []
      else p' = del_funds (fin_move p SPassed SFinalized 8) /\
           exists paid, ev = (if bool_decide (p_type p = TConfig) then [EvConfig id] else []) ++
                             [EvDistrib id paid (p_total p)]
  | RFailed => p' = del_funds (fin_move p SFailed SFinalized 8) /\ exists paid, ev = [EvDistrib id paid (p_total p)]
  | RTBD => False
  end.

Lemma h_finalize_Some s e id s' ev : h_finalize s e id = Some (s', ev) ->
  exists p, g_props s !! id = Some p /\
    ((8 <= p_extra p \/ p_store p = SFinalized \/ p_store p = SFinFailed) /\ s' = s /\ ev = [] \/
     p_extra p < 8 /\ (p_store p = SPassed \/ p_store p = SFailed) /\ p_status p = StCompleted /\ p_votes p <> [] /\
     g_h s' = g_h s /\ exists p', g_props s' = <[id := p']> (g_props s) /\ fin_result e id p p' ev).
Proof.
  unfold h_finalize. destruct (g_props s !! id) as [p|]; [|discriminate]. intros H. exists p. split; [done|].
  destruct (Z.leb_spec 8 (p_extra p)) as [Hx|Hx]. { injection H as <- <-. auto. }
  (* three cases, not five: the passed and the failed store share a branch of [h_finalize], the two terminal stores
     another *)
  apply store_cases in H as [[_ [=]] | [[Hs H] | [Hs [= <- <-]]]]; [right | auto].
  apply guard_dec in H as [G1 H].
  destruct (if p_snapblk p =? g_blk s then [] else p_votes p) eqn:Ev in H; [discriminate|].
  assert (p_votes p <> []) by (intros Hn; rewrite Hn in Ev; destruct (_ =? _); discriminate).
  do 4 (split; [done|]). unfold fin_result. destruct (tally (p_votes p) (p_pass p)); [| |discriminate].
  1: destruct (bool_decide _ && bool_decide _); [injection H as <- <-; eauto|]; destruct (bool_decide (p_type p = TConfig)).
  all: destruct (distribute _ e id p _) as [[s1 paid] bad] eqn:Ed; apply distribute_frame in Ed as [Ep Eh].
  all: injection H as <- <-; destruct bad; simpl; rewrite Ep, Eh; eauto 6.
Qed.

Lemma add_funds_eq b p f a :
  add_funds b p f a = with_newf (with_funds p (p_total p + a) (aupd f a (p_indiv p))) (p_newf (add_funds b p f a)).
Proof. unfold add_funds. destruct (alookup f (p_indiv p)); reflexivity. Qed.

(* the two EndBlock handlers; both are public transactions as well, hence [TS_end] *)
Inductive end_step (h : Z) (p : prec) : prec -> Prop :=
| ES_none : end_step h p p
| ES_expire : p_store p = SActive -> p_status p = StVoting -> p_vdl p < h ->
    end_step h p (with_stage p SFailed StCompleted OInsufVotes)
| ES_finalize expected (final : bool) :
    p_extra p < 8 -> p_store p = SPassed \/ p_store p = SFailed -> p_votes p <> [] ->
    end_step h p (if final then del_funds (fin_move p expected SFinalized 8) else fin_move p expected SFinFailed 16).

Inductive tx_step (h : Z) (p : prec) : prec -> Prop :=
| TS_fund f a nf : p_store p = SActive -> p_status p = StFunding -> 0 < a ->
    tx_step h p (with_newf (with_funds p (p_total p + a) (aupd f a (p_indiv p))) nf)
| TS_fund_voting blk vdl act f a nf :
    p_store p = SActive -> p_status p = StFunding -> 0 < a -> p_goal p <= a + p_total p ->
    tx_step h p (with_newf (with_funds (with_voting blk p vdl (snapshot act (p_votes p)))
                                       (p_total p + a) (aupd f a (p_indiv p))) nf)
| TS_vote v o vs : p_store p = SActive -> p_status p = StVoting -> vote_update v o (p_votes p) = Some vs ->
    tx_step h p (match tally vs (p_pass p) with
                 | RPassed => with_stage (with_votes p vs) SPassed StCompleted OCompletedYes
                 | RFailed => with_stage (with_votes p vs) SFailed StCompleted OCompletedNo
                 | RTBD => with_votes p vs
                 end)
| TS_cancel : p_store p = SActive -> p_status p = StFunding ->
    tx_step h p (with_stage p SFailed StCompleted OCancelled)
| TS_refund f a c : p_store p = SActive \/ p_store p = SFailed -> refundable (p_outcome p) = true ->
    alookup f (p_indiv p) = Some c -> 0 < a <= c ->
    tx_step h p (with_funds p (p_total p - a) (aupd f (- a) (p_indiv p)))
| TS_missed f a c : p_store p = SActive \/ p_store p = SFailed -> p_total p < p_goal p ->
    alookup f (p_indiv p) = Some c -> 0 < a <= c ->
    tx_step h p (with_funds (with_stage p SFailed StCompleted OInsufFunds) (p_total p - a) (aupd f (- a) (p_indiv p)))
| TS_end p' : end_step h p p' -> tx_step h p p'.

Lemma end_step_refl h : Reflexive (end_step h).
Proof. intros p. apply ES_none. Qed.
Lemma tx_step_refl h : Reflexive (tx_step h).
Proof. intros p. apply TS_end, ES_none. Qed.

(* ValidateProposal demands an initial funding >= 1 and a pass percentage in 51..80 of every option set, at genesis
   and at every governance update *)
Definition sane_op (t : txop) : Prop :=
  match t_op t with
  | OCreate _ ty _ _ _ _ _ _ _ =>
      0 <= o_init (opts_of (t_env t) ty) /\ 0 < o_pass (opts_of (t_env t) ty) <= 100
  | _ => True
  end.

Definition fresh (t : txop) (p : prec) : Prop :=
  p_store p = SActive /\ p_status p = StFunding /\ p_outcome p = OInProgress /\ p_votes p = [] /\ p_extra p = 0 /\
  (exists f, p_indiv p = [(f, p_total p)]) /\ (sane_op t -> 0 <= p_total p /\ 0 < p_pass p <= 100).

Definition evolve (R : relation prec) (C : prec -> Prop) (m m' : gmap N prec) : Prop := forall id,
  match m !! id, m' !! id with
  | Some p, Some p' => R p p'
  | None, Some p' => C p'
  | None, None => True
  | Some _, None => False
  end.
Notation nothing_new := (fun _ : prec => False).

Lemma evolve_refl R C m : Reflexive R -> evolve R C m m.
Proof. intros HR id. destruct (m !! id); [apply HR | exact I]. Qed.

Lemma evolve_write R C m id p' : Reflexive R ->
  match m !! id with Some p => R p p' | None => C p' end -> evolve R C m (<[id := p']> m).
Proof.
  intros HR H i. destruct (decide (i = id)) as [->|Hn].
  - rewrite lookup_insert. destruct (m !! id); exact H.
  - rewrite lookup_insert_ne by done. apply evolve_refl, HR.
Qed.

Lemma evolve_mono (R R' : relation prec) (C C' : prec -> Prop) m m' :
  (forall p p', R p p' -> R' p p') -> (forall p, C p -> C' p) -> evolve R C m m' -> evolve R' C' m m'.
Proof. intros HR HC H id. specialize (H id). destruct (m !! id), (m' !! id); auto. Qed.

Lemma evolve_Forall (X : prec -> Prop) R C m m' :
  evolve R C m m' -> (forall p p', R p p' -> X p -> X p') -> (forall p, C p -> X p) ->
  map_Forall (fun _ => X) m -> map_Forall (fun _ => X) m'.
Proof.
  intros He HR HC Hm id p' Hp'. specialize (He id). rewrite Hp' in He. destruct (m !! id) as [p|] eqn:Ep; eauto.
Qed.

Lemma expire_evolves s id s' ev : h_expire s id = Some (s', ev) ->
  g_h s' = g_h s /\ evolve (end_step (g_h s)) nothing_new (g_props s) (g_props s') /\ ev = [].
Proof.
  intros (p & E & ? & ? & ? & -> & ->)%h_expire_Some. repeat split.
  apply evolve_write; [apply end_step_refl|]. rewrite E. by apply ES_expire.
Qed.

Lemma finalize_evolves s e id s' ev : h_finalize s e id = Some (s', ev) ->
  g_h s' = g_h s /\ evolve (end_step (g_h s)) nothing_new (g_props s) (g_props s').
Proof.
  intros (p & E & [(_ & -> & _) | (Hx & Hs & _ & Hv & Hh & p' & -> & Hp')])%h_finalize_Some; (split; [done|]).
  { apply evolve_refl, end_step_refl. }
  apply evolve_write; [apply end_step_refl|]. rewrite E.
  unfold fin_result in Hp'. destruct (tally _ _); [destruct (_ && _)| |done]; destruct Hp' as [-> _].
  - exact (ES_finalize _ _ SPassed false Hx Hs Hv).
  - exact (ES_finalize _ _ SPassed true Hx Hs Hv).
  - exact (ES_finalize _ _ SFailed true Hx Hs Hv).
Qed.

Theorem config_event_sound : forall s e id s' ev id', h_finalize s e id = Some (s', ev) -> EvConfig id' ∈ ev ->
  id' = id /\ exists p, g_props s !! id = Some p /\ p_type p = TConfig /\
    (p_store p = SPassed \/ p_store p = SFailed) /\ p_extra p < 8 /\
    tally (p_votes p) (p_pass p) = RPassed /\ p_votes p <> [] /\ (p_store p = SPassed -> rank_of s' id = 4%nat).
Proof.
  intros s e id s' ev id' (p & E & [(_ & _ & ->) | (Hx & Hs & _ & Hv & _ & p' & Ep & Hp')])%h_finalize_Some Hi;
    [by apply elem_of_nil in Hi|].
  unfold fin_result in Hp'. destruct (tally _ _) eqn:Et; [destruct (_ && _)| |done]; destruct Hp' as [-> Hev].
  - subst. by apply elem_of_nil in Hi.
  - destruct Hev as [paid ->]. apply elem_of_app in Hi as [Hi|Hi%elem_of_list_singleton]; [|done].
    case_bool_decide as Ety; [apply elem_of_list_singleton in Hi as [= ->] | by apply elem_of_nil in Hi].
    split; [done|]. exists p. repeat split; auto. intros Hsp.
    unfold rank_of. rewrite Ep, lookup_insert. unfold fin_move. by rewrite bool_decide_eq_true_2.
  - destruct Hev as [paid ->]. by apply elem_of_list_singleton in Hi.
Qed.

Definition tx_ok (s : state) (t : txop) (x : state * bool * list event) : Prop :=
  evolve (tx_step (g_h s)) (fresh t) (g_props s) (g_props x.1.1) /\
  forall i, EvConfig i ∈ x.2 -> exists s' ev, h_finalize s (t_env t) i = Some (s', ev) /\ EvConfig i ∈ ev.

Lemma tx_ok_same s t s' ok : g_props s' = g_props s -> tx_ok s t (s', ok, []).
Proof. intros Ep. split; simpl; [rewrite Ep; apply evolve_refl, tx_step_refl | by intros i ?%elem_of_nil]. Qed.

Lemma tx_ok_wrote s t (r : hres) :
  (forall s1 ev, r = Some (s1, ev) -> exists id p', g_props s1 = <[id := p']> (g_props s) /\
     match g_props s !! id with Some p => tx_step (g_h s) p p' | None => fresh t p' end /\ forall i, EvConfig i ∉ ev) ->
  tx_ok s t (match charge r (t_payer t) (t_fee t) with Some (s', ev) => (s', true, ev) | None => (s, false, []) end).
Proof.
  intros Hr. destruct r as [[s1 ev]|]; simpl; [|by apply tx_ok_same].
  destruct (Hr s1 ev eq_refl) as (id & p' & Ep & H & Hev). destruct (_ <? 0); [by apply tx_ok_same|].
  split; simpl; [|intros i Hi; destruct (Hev i Hi)]. rewrite Ep. apply evolve_write; [apply tx_step_refl | exact H].
Qed.

Lemma step_tx s t : t_op t <> OEnd -> tx_ok s t (step s t).
Proof.
  intros Hne. pose proof (tx_ok_same s t s false eq_refl) as H0. unfold step.
  destruct (t_op t) eqn:Eo; cbv beta iota zeta; [| | | | | | | | done |].
  - by apply tx_ok_same.
  - (* the paying kinds: the handler writes one record, the fee step commits the write or discards it *)
    apply tx_ok_wrote. intros s1 ev (E & Ha & _ & Hp & _ & _ & _ & -> & ->)%cguard_Some%h_create_Some.
    eexists _, _. split; [done|]. rewrite E, add_funds_eq. split; [|by intros i [=]%elem_of_list_singleton].
    repeat split; simpl; eauto. all: unfold sane_op in *; rewrite Eo in *; lia.
  - apply tx_ok_wrote. intros s1 ev (p & E & Ha & Hs & _ & Hf & _ & -> & ->)%cguard_Some%h_fund_Some.
    eexists _, _. split; [done|]. rewrite E, add_funds_eq. split; [|by intros i [=]%elem_of_list_singleton].
    destruct (Z.leb_spec (p_goal p) (amt + p_total p)) as [Hg|_]; [|exact (TS_fund _ p funder amt _ Hs Hf Ha)].
    exact (TS_fund_voting _ p (g_blk s) _ _ funder amt _ Hs Hf Ha Hg).
  - apply tx_ok_wrote. intros s1 ev (p & vs & E & Hs & Hv & _ & _ & Hu & _ & -> & ->)%h_vote_Some.
    eexists _, _. split; [done|]. rewrite E. split; [exact (TS_vote _ p val o vs Hs Hv Hu) | by intros i ?%elem_of_nil].
  - apply tx_ok_wrote. intros s1 ev (p & E & Hs & Hf & _ & _ & -> & ->)%h_cancel_Some.
    eexists _, _. split; [done|]. rewrite E. split; [exact (TS_cancel _ p Hs Hf) | by intros i ?%elem_of_nil].
  - apply tx_ok_wrote.
    intros s1 ev (p & p1 & c & E & Hs & Ha & Hp1 & _ & Hl & Hc & _ & -> & ->)%cguard_Some%h_withdraw_Some.
    eexists _, _. split; [done|]. rewrite E. split; [|by intros i [=]%elem_of_list_singleton].
    destruct Hp1 as [[Hr ->] | (_ & Hg & _ & ->)]; [exact (TS_refund _ p funder amt c Hs Hr Hl (conj Ha Hc))|].
    exact (TS_missed _ p funder amt c Hs Hg Hl (conj Ha Hc)).
  - destruct (h_expire s id) as [[s' ev]|] eqn:E; [|exact H0]. apply expire_evolves in E as (_ & E & ->).
    split; [|by intros i ?%elem_of_nil]. eapply evolve_mono; [| |exact E]; [apply TS_end | done].
  - destruct (h_finalize s (t_env t) id) as [[s' ev]|] eqn:E; [|exact H0]. split.
    + apply finalize_evolves in E as [_ E]. eapply evolve_mono; [| |exact E]; [apply TS_end | done].
    + intros i Hi. destruct (config_event_sound _ _ _ _ _ _ E Hi) as [-> _]. eauto.
  - unfold charge. destruct (_ <? 0); by apply tx_ok_same.
Qed.

Lemma run_queue_ind (h : state -> N -> hres) (I : state -> Prop) (Qe : event -> Prop) q s :
  (forall st id st' ev, I st -> h st id = Some (st', ev) -> I st' /\ Forall Qe ev) -> I s ->
  I (run_queue h q s).1 /\ Forall Qe (run_queue h q s).2.
Proof.
  intros Hh Hs. unfold run_queue.
  assert (I (s, @nil event).1 /\ Forall Qe (s, @nil event).2) as H by (split; [done | constructor]).
  revert H. generalize (s, @nil event). induction q as [|id q IH]; intros acc [HI HQ]; simpl; [done|]. apply IH.
  destruct (h acc.1 id) as [[st' ev]|] eqn:E; [|done]. destruct (Hh _ _ _ _ HI E). split; [done | by apply Forall_app].
Qed.

Definition end_reach (s st : state) : Prop :=
  g_h st = g_h s /\ evolve (rtc (end_step (g_h s))) nothing_new (g_props s) (g_props st).

Lemma end_reach_step s st st' : end_reach s st -> g_h st' = g_h st ->
  evolve (end_step (g_h st)) nothing_new (g_props st) (g_props st') -> end_reach s st'.
Proof.
  intros [Hh Hr] Hh' He. split; [congruence|]. intros id. specialize (Hr id). specialize (He id). rewrite Hh in He.
  destruct (g_props s !! id), (g_props st !! id), (g_props st' !! id); try done. by eapply rtc_r.
Qed.

Definition from_finalize (s : state) (e : env) (x : event) : Prop :=
  forall i, x = EvConfig i ->
    exists st s' ev, end_reach s st /\ h_finalize st e i = Some (s', ev) /\ EvConfig i ∈ ev.

Theorem step_end s t : t_op t = OEnd ->
  end_reach s (step s t).1.1 /\ Forall (from_finalize s (t_env t)) (step s t).2.
Proof.
  unfold step. intros ->. set (e := t_env t). unfold end_block.
  destruct (run_queue_ind h_expire (end_reach s) (from_finalize s e) (g_qexp s) s) as [R1 Q1].
  { intros st id st' ev Hr (Hh & He & ->)%expire_evolves. split; [by eapply end_reach_step | constructor]. }
  { split; [done | apply evolve_refl, _]. }
  destruct (run_queue h_expire (g_qexp s) s) as [s1 ev1].
  destruct (run_queue_ind (fun st id => h_finalize st e id) (end_reach s) (from_finalize s e) (g_qfin s) s1) as [R2 Q2].
  { intros st id st' ev Hr E. split; [destruct (finalize_evolves _ _ _ _ _ E); by eapply end_reach_step|].
    apply Forall_forall. intros x Hx i ->. destruct (config_event_sound _ _ _ _ _ _ E Hx) as [-> _].
    by exists st, st', ev. }
  { exact R1. }
  destruct (run_queue _ (g_qfin s) s1) as [s2 ev2]. split; [exact R2 | by apply Forall_app].
Qed.

Lemma is_end_dec t : t_op t = OEnd \/ t_op t <> OEnd.
Proof. destruct (t_op t); auto; by right. Qed.

Lemma step_refused s t : (step s t).1.2 = false -> (step s t).1.1 = s.
Proof.
  unfold step. destruct (t_op t); cbv beta iota zeta; [done | ..].
  1-5,9: by destruct (charge _ _ _) as [[? ?]|].
  - by destruct (h_expire s id) as [[? ?]|].
  - by destruct (h_finalize s (t_env t) id) as [[? ?]|].
  - by destruct (end_block s (t_env t)).
Qed.

Lemma rtc_within {A} (R Q : relation A) :
  Reflexive Q -> Transitive Q -> (forall a b, R a b -> Q a b) -> forall a b, rtc R a b -> Q a b.
Proof. intros HR HT HQ a b. induction 1; [apply HR | eapply HT; eauto]. Qed.

Theorem step_evolve s t : evolve (rtc (tx_step (g_h s))) (fresh t) (g_props s) (g_props (step s t).1.1).
Proof.
  destruct (is_end_dec t) as [E|E].
  - destruct (step_end s t E) as [[_ H] _]. eapply evolve_mono; [| |exact H]; [|done].
    intros p p'. apply rtc_subrel. intros ? ?. apply TS_end.
  - eapply evolve_mono; [| |exact (proj1 (step_tx s t E))]; [apply rtc_once | done].
Qed.

Corollary step_within (Q : relation prec) s t : Reflexive Q -> Transitive Q ->
  (forall p p', tx_step (g_h s) p p' -> Q p p') -> evolve Q (fresh t) (g_props s) (g_props (step s t).1.1).
Proof. intros HR HT HQ. eapply evolve_mono; [by apply rtc_within | done | apply step_evolve]. Qed.

Theorem step_config s t i : EvConfig i ∈ (step s t).2 ->
  exists st s' ev, end_reach s st /\ h_finalize st (t_env t) i = Some (s', ev) /\ EvConfig i ∈ ev.
Proof.
  destruct (is_end_dec t) as [E|E].
  - intros Hi. exact (proj1 (Forall_forall _ _) (proj2 (step_end s t E)) _ Hi i eq_refl).
  - intros (s' & ev & ? & ?)%(proj2 (step_tx s t E)). exists s, s', ev. repeat split; auto. apply evolve_refl, _.
Qed.

(* the second conjunct leaves out the records whose funds the finalisation has deleted (the fourth): their total is 0 *)
Definition PInv (p : prec) : Prop :=
  (p_status p = StFunding -> p_votes p = []) /\
  (p_votes p <> [] -> p_store p <> SFinalized -> p_extra p <> 8 -> p_goal p <= p_total p) /\
  (refundable (p_outcome p) = true -> p_votes p = []) /\
  (p_store p = SFinalized \/ p_extra p = 8 -> p_indiv p = []) /\
  (p_store p = SFinalized \/ p_store p = SFinFailed -> p_votes p <> []) /\
  (p_store p = SActive -> p_outcome p = OInProgress) /\
  (p_store p = SActive -> p_extra p = 0) /\
  (p_store p = SPassed -> p_outcome p = OCompletedYes).

Definition Inv (s : state) : Prop := forall id p, g_props s !! id = Some p -> PInv p.

Lemma vote_update_nonempty v o vs vs' : vote_update v o vs = Some vs' -> vs <> [] /\ vs' <> [].
Proof.
  destruct vs as [|x r]; simpl; [done|]. destruct (N.eqb (v_val x) v); [by intros [= <-]|].
  destruct (vote_update v o r); by intros [= <-].
Qed.

(* the nine kinds of record step, in the order fund, fund to voting, vote, cancel, refund, refund after a missed goal,
   nothing, expire, finalize; [Es], [Ef], [Ev] say in which store and status [p] is *)
Local Ltac step_cases H :=
  destruct H as [f a nf Es Ef Ha | blk vdl act f a nf Es Ef Ha Hg | v o vs Es Ev Hu | Es Ef
                | f a c Es Hr Hl Ha | f a c Es Hg Hl Ha | p' [| Es Ev Hd | exp final Hx Es Hv]].

Local Ltac closed :=
  try solve [ (intros [?|?] || intros); first [assumption | reflexivity | discriminate | contradiction | lia] ].

Lemma tx_step_PInv h p p' : tx_step h p p' -> PInv p -> PInv p'.
Proof.
  intros Hs (Funding & Goal & Refund & Emptied & Final & Active & Extra & Passed). unfold PInv.
  step_cases Hs; simpl.
  - split_and!; try assumption; rewrite ?(Funding Ef), ?(Extra Es), ?Es; closed.
  - split_and!; try assumption; rewrite ?(Funding Ef), ?(Extra Es), ?(Active Es), ?Es; closed.
  - apply vote_update_nonempty in Hu as [Hn Hn'].
    assert (p_goal p <= p_total p) by (apply Goal; [done | by rewrite Es | by rewrite (Extra Es)]).
    destruct (tally vs (p_pass p)); simpl; split_and!; try assumption;
      rewrite ?(Extra Es), ?(Active Es), ?Es, ?Ev; closed.
  - split_and!; try assumption; rewrite ?(Funding Ef), ?(Extra Es); closed.
  - split_and!; try assumption; rewrite ?(Refund Hr); closed. intros D. by rewrite (Emptied D) in Hl.
  - assert (p_extra p <> 8) by (intros X; by rewrite (Emptied (or_intror X)) in Hl).
    assert (p_votes p = []) as V.
    { destruct (p_votes p) eqn:V; [done|]. enough (p_goal p <= p_total p) by lia.
      apply Goal; [done | by destruct Es as [->| ->] | done]. }
    split_and!; rewrite ?V; closed.
  - done.
  - split_and!; try assumption; rewrite ?(Extra Es); closed.
    intros ? _ _. apply Goal; [done | by rewrite Es | by rewrite (Extra Es)].
  - assert (p_store p <> SActive /\ p_store p <> SFinalized) as [NA NF] by (by destruct Es as [->| ->]).
    assert (p_goal p <= p_total p) by (apply Goal; [done.. | lia]).
    destruct final; unfold fin_move; case_bool_decide; simpl; split_and!; try assumption; closed.
Qed.

Lemma fresh_PInv t p : fresh t p -> PInv p.
Proof.
  intros (Es & Ef & Eo & Ev & Ex & _). unfold PInv. rewrite Es, Eo, Ev, Ex. split_and!; closed.
Qed.

Lemma tx_step_rank h p p' : tx_step h p p' -> (rank p <= rank p')%nat.
Proof.
  intros Hs. step_cases Hs; unfold rank; simpl.
  1,2,4,8: rewrite Es, ?Ef, ?Ev; simpl; lia.
  - destruct (tally vs (p_pass p)); simpl; rewrite Es, Ev; simpl; lia.
  - lia.
  - destruct Es as [->| ->]; [destruct (p_status p)|]; lia.
  - lia.
  - destruct final; unfold fin_move; case_bool_decide; simpl; destruct Es as [->| ->]; lia.
Qed.

Lemma tx_step_terminal h p p' : tx_step h p p' -> p_store p = SFinalized \/ p_store p = SFinFailed -> p' = p.
Proof.
  intros Hs [T|T]; step_cases Hs; try rewrite T in Es; first [reflexivity | discriminate | destruct Es; discriminate].
Qed.

Definition expirable (h : Z) (p : prec) : Prop := p_store p = SActive /\ p_status p = StVoting /\ p_vdl p < h.

Lemma end_step_expiry h p p' : end_step h p p' ->
  p' = p \/ p_store p' <> SActive /\ (p_outcome p' = OInsufVotes -> p_outcome p = OInsufVotes \/ expirable h p).
Proof.
  destruct 1 as [| |exp final Hx Es Hv]; [by left | right; split; [done | by right] | right].
  assert (p_store p <> SActive) by (by destruct Es as [->| ->]).
  destruct final; unfold fin_move; case_bool_decide; simpl; auto.
Qed.

Lemma end_steps_expiry h p p' : rtc (end_step h) p p' ->
  p' = p \/ p_store p' <> SActive /\ (p_outcome p' = OInsufVotes -> p_outcome p = OInsufVotes \/ expirable h p).
Proof.
  induction 1 as [|p p1 p' [->|[N1 O1]]%end_step_expiry _ IH]; [by left | done | right].
  destruct IH as [->|[N2 O2]]; [done|]. split; [done|].
  (* the first step has left p1 inactive (N1), so not expirable: that is what [p_store p' <> SActive] is stated for *)
  intros [O|[A _]]%O2; [auto | done].
Qed.

Lemma tx_step_expiry h p p' : tx_step h p p' ->
  p_outcome p' = OInsufVotes -> p_outcome p = OInsufVotes \/ expirable h p.
Proof.
  destruct 1 as [| | | | | |p' [->|[_ O]]%end_step_expiry]; simpl; auto; try done.
  destruct (tally _ _); simpl; auto; done.
Qed.

Theorem step_expiry s t id p' : g_props (step s t).1.1 !! id = Some p' -> p_outcome p' = OInsufVotes ->
  exists p, g_props s !! id = Some p /\ (p_outcome p = OInsufVotes \/ expirable (g_h s) p).
Proof.
  intros Hp' Ho. destruct (is_end_dec t) as [E|E].
  - destruct (step_end s t E) as [[_ H] _]. specialize (H id). rewrite Hp' in H.
    destruct (g_props s !! id) as [p|]; [|done]. exists p. split; [done|].
    destruct (end_steps_expiry _ _ _ H) as [->|[_ O]]; auto.
  - destruct (step_tx s t E) as [H _]. specialize (H id). rewrite Hp' in H.
    destruct (g_props s !! id) as [p|]; [eauto using tx_step_expiry|]. destruct H as (_ & _ & O & _). congruence.
Qed.

Definition unk (v : vote) : Prop := v_op v = OpUnknown.

Lemma vote_setup_unk v pw vs : Forall unk vs -> Forall unk (vote_setup v pw vs).
Proof.
  induction 1 as [|x r Hx Hr IH]; simpl; [by repeat constructor|]. destruct (N.eqb (v_val x) v); by constructor.
Qed.

Lemma snapshot_unk act vs : Forall unk vs -> Forall unk (snapshot act vs).
Proof. unfold snapshot. revert vs. induction act as [|a act IH]; simpl; auto using vote_setup_unk. Qed.

Lemma power_of_unk o vs : Forall unk vs -> o <> OpUnknown -> power_of o vs = 0.
Proof.
  intros H Ho. induction H as [|x l Hx _ IH]; [done|]. unfold power_of in *. simpl. rewrite IH, Hx.
  by rewrite bool_decide_eq_false_2.
Qed.

Lemma tally_unk vs pass : Forall unk vs -> 0 < pass <= 100 -> tally vs pass = RTBD.
Proof.
  intros H Hp. unfold tally. rewrite !(power_of_unk _ vs H) by done.
  destruct (Z.ltb_spec 0 (power_all vs - 0)); by rewrite (proj2 (Z.leb_gt _ _)), (proj2 (Z.ltb_ge _ _)) by nia.
Qed.

(* holds since /repo 23f7d29: the vote handler tallies with the proposal's own percentage, as the finalisation does *)
Definition TP (p : prec) : Prop :=
  0 < p_pass p <= 100 /\
  (p_store p = SActive -> p_votes p = [] \/ tally (p_votes p) (p_pass p) = RTBD) /\
  (p_store p = SFailed -> p_votes p = [] \/ tally (p_votes p) (p_pass p) <> RPassed).
Definition TInv (s : state) : Prop := forall id p, g_props s !! id = Some p -> TP p.

Lemma tx_step_TP h p p' : tx_step h p p' -> (p_status p = StFunding -> p_votes p = []) -> TP p -> TP p'.
Proof.
  intros Hs H1 HT. pose proof HT as ([Hp Hp'] & Hact & Hf). unfold TP in *.
  assert (p_store p = SActive -> p_votes p = [] \/ tally (p_votes p) (p_pass p) <> RPassed) as Hact'.
  { intros [?|Et]%Hact; [by left | right; by rewrite Et]. }
  step_cases Hs; simpl; try exact HT.
  (* left: fund to voting, vote, cancel, refund after a missed goal, expire, finalize *)
  - rewrite Es. split_and!; closed. intros _. right. rewrite (H1 Ef). apply tally_unk; [by apply snapshot_unk | by split].
  - destruct (tally vs (p_pass p)) eqn:Et; simpl; rewrite ?Es, ?Et; split_and!; closed; intros _; right; closed.
  - split_and!; closed. auto.
  - split_and!; closed. intros _. destruct Es; auto.
  - split_and!; closed. auto.
  - destruct final; unfold fin_move; case_bool_decide; simpl; exact HT || (split_and!; closed).
Qed.

Lemma fresh_TP t p : sane_op t -> fresh t p -> TP p.
Proof.
  intros Hs (Es & _ & _ & Ev & _ & _ & [_ [Hp Hp']]%(fun H => H Hs)). unfold TP. rewrite Es, Ev. split_and!; auto; done.
Qed.

Definition nn (kv : N * Z) : Prop := 0 <= kv.2.
Definition FInv (p : prec) : Prop := Forall nn (p_indiv p) /\ p_total p = asum (p_indiv p).
Definition FundsInv (s : state) : Prop := forall id p, g_props s !! id = Some p -> FInv p.

Lemma asum_aupd f d l : asum (aupd f d l) = asum l + d.
Proof.
  induction l as [|[k v] l IH]; simpl; [lia|]. destruct (N.eqb f k); simpl; [lia|]. unfold asum in *. simpl. lia.
Qed.

Lemma alookup_bounds f l : Forall nn l -> 0 <= default 0 (alookup f l) <= asum l.
Proof.
  induction 1 as [|[k v] l Hv _ IH]; simpl; [done|]. unfold nn, asum in *. simpl in *. destruct (N.eqb f k); simpl; lia.
Qed.

Lemma aupd_nn f d l : Forall nn l -> 0 <= default 0 (alookup f l) + d -> Forall nn (aupd f d l).
Proof.
  intros H. induction H as [|[k v] l Hv Hl IH]; simpl; [by repeat constructor|].
  destruct (N.eqb f k); constructor; auto.
Qed.

Lemma tx_step_FInv h p p' : tx_step h p p' -> FInv p -> FInv p'.
Proof.
  intros Hs [Hn Ht]. unfold FInv.
  step_cases Hs; simpl; rewrite ?asum_aupd; try (split; assumption).
  1,2: split; [apply aupd_nn; [done | pose proof (alookup_bounds f _ Hn); lia] | lia].
  2,3: split; [apply aupd_nn; [done | rewrite Hl; simpl; lia] | lia].
  - by destruct (tally vs (p_pass p)).
  - destruct final; unfold fin_move; case_bool_decide; simpl; done || by split; [constructor|].
Qed.

Lemma fresh_FInv t p : sane_op t -> fresh t p -> FInv p.
Proof.
  intros Hs (_ & _ & _ & _ & _ & [f Ei] & [Ht _]%(fun H => H Hs)). unfold FInv. rewrite Ei. unfold asum; simpl.
  split; [by repeat constructor | lia].
Qed.

Definition WP (p : prec) : Prop := NoDup (map v_val (p_votes p)) /\ NoDup (map fst (p_indiv p)).
Definition WInv (s : state) : Prop := forall id p, g_props s !! id = Some p -> WP p.

Lemma aupd_absent f d l : f ∉ map fst l -> aupd f d l = l ++ [(f, d)].
Proof.
  induction l as [|[k v] l IH]; simpl; [done|]. intros [Hn Hl]%not_elem_of_cons.
  rewrite (proj2 (N.eqb_neq f k)) by done. by rewrite IH.
Qed.

Lemma aupd_keys f d l : f ∈ map fst l -> map fst (aupd f d l) = map fst l.
Proof.
  induction l as [|[k v] l IH]; simpl; [by intros ?%elem_of_nil|].
  destruct (N.eqb_spec f k) as [->|Hn]; simpl; [done|]. intros [?|?]%elem_of_cons; [done|]. by rewrite IH.
Qed.

Lemma snoc_nodup {A} (l : list A) x : NoDup l -> x ∉ l -> NoDup (l ++ [x]).
Proof.
  intros Hl Hx. apply NoDup_app. split_and!; [done | by intros y ? ->%elem_of_list_singleton | apply NoDup_singleton].
Qed.

Lemma aupd_nodup f d l : NoDup (map fst l) -> NoDup (map fst (aupd f d l)).
Proof.
  intros H. destruct (decide (f ∈ map fst l)); [by rewrite aupd_keys|].
  rewrite aupd_absent, map_app by done. by apply snoc_nodup.
Qed.

Lemma vote_setup_absent v pw vs : v ∉ map v_val vs -> vote_setup v pw vs = vs ++ [mkVote v pw OpUnknown].
Proof.
  induction vs as [|x r IH]; simpl; [done|]. intros [Hn Hl]%not_elem_of_cons.
  rewrite (proj2 (N.eqb_neq (v_val x) v)) by done. by rewrite IH.
Qed.

Lemma vote_setup_vals v pw vs : v ∈ map v_val vs -> map v_val (vote_setup v pw vs) = map v_val vs.
Proof.
  induction vs as [|x r IH]; simpl; [by intros ?%elem_of_nil|].
  destruct (N.eqb_spec (v_val x) v) as [->|Hn]; simpl; [done|]. intros [?|?]%elem_of_cons; [done|]. by rewrite IH.
Qed.

Lemma snapshot_nodup act vs : NoDup (map v_val vs) -> NoDup (map v_val (snapshot act vs)).
Proof.
  unfold snapshot. revert vs. induction act as [|a act IH]; intros vs H; simpl; [done|]. apply IH.
  destruct (decide (a.1 ∈ map v_val vs)); [by rewrite vote_setup_vals|].
  rewrite vote_setup_absent, map_app by done. by apply snoc_nodup.
Qed.

Lemma vote_update_keeps {B} (g : N -> Z -> B) v o vs vs' : vote_update v o vs = Some vs' ->
  map (fun x => g (v_val x) (v_power x)) vs' = map (fun x => g (v_val x) (v_power x)) vs.
Proof.
  revert vs'. induction vs as [|x r IH]; intros vs'; simpl; [done|]. destruct (N.eqb (v_val x) v); [by intros [= <-]|].
  destruct (vote_update v o r) as [r'|]; [|done]. intros [= <-]. simpl. by rewrite (IH r').
Qed.

Lemma vote_update_vals v o vs vs' : vote_update v o vs = Some vs' -> map v_val vs' = map v_val vs.
Proof. apply (vote_update_keeps (fun v _ => v)). Qed.

Lemma tx_step_WP h p p' : tx_step h p p' -> WP p -> WP p'.
Proof.
  intros Hs [Hw Hi]. unfold WP. step_cases Hs; simpl; auto using aupd_nodup, snapshot_nodup.
  - apply vote_update_vals in Hu. destruct (tally vs (p_pass p)); simpl; by rewrite Hu.
  - destruct final; unfold fin_move; case_bool_decide; simpl; auto using NoDup_nil_2.
Qed.

Lemma fresh_WP t p : fresh t p -> WP p.
Proof.
  intros (_ & _ & _ & Ev & _ & [f Ei] & _). unfold WP. rewrite Ev, Ei. split; [constructor | apply NoDup_singleton].
Qed.

(* [Inv], [TInv], [FundsInv], [WInv] are [recs PInv], [recs TP], [recs FInv], [recs WP] by conversion *)
Definition recs (X : prec -> Prop) (s : state) : Prop := forall id p, g_props s !! id = Some p -> X p.

Lemma recs_init X : recs X init.
Proof. apply map_Forall_empty. Qed.

Lemma recs_and X Y s : recs (fun p => X p /\ Y p) s <-> recs X s /\ recs Y s.
Proof. split; [intros H; split; intros id p Hp; apply (H id p Hp) | intros [HX HY] id p Hp; eauto]. Qed.

Definition Good (s : state) : Prop := Inv s /\ TInv s.
Definition AllInv (s : state) : Prop := Inv s /\ TInv s /\ FundsInv s /\ WInv s.

Lemma tx_step_good h p p' : tx_step h p p' -> PInv p /\ TP p -> PInv p' /\ TP p'.
Proof. intros Hs [HP HT]. split; [by eapply tx_step_PInv | eapply tx_step_TP; [done | apply HP | done]]. Qed.

Lemma step_recs (X : prec -> Prop) s t :
  (forall h p p', tx_step h p p' -> X p -> X p') -> (forall p, fresh t p -> X p) -> recs X s -> recs X (step s t).1.1.
Proof.
  intros HX HF. apply (evolve_Forall X (fun p p' => X p -> X p') (fresh t)); [|auto..].
  apply step_within; [intros ?; auto | intros ? ? ?; auto | apply HX].
Qed.

Lemma end_reach_recs (X : prec -> Prop) s st :
  (forall h p p', tx_step h p p' -> X p -> X p') -> end_reach s st -> recs X s -> recs X st.
Proof.
  intros HX [_ He]. apply (evolve_Forall X _ _ _ _ He); [|done].
  intros p p'. apply (rtc_within _ (fun p p' => X p -> X p')); [intros ?; auto | intros ? ? ?; auto |].
  intros a b Hs. apply (HX _ _ _ (TS_end _ _ _ Hs)).
Qed.

Lemma step_Good s t : sane_op t -> Good s -> Good (step s t).1.1.
Proof.
  intros Hs HG%recs_and. apply recs_and. revert HG. apply step_recs; [apply tx_step_good|].
  intros p Hf. split; eauto using fresh_PInv, fresh_TP.
Qed.

Lemma step_AllInv s t : sane_op t -> AllInv s -> AllInv (step s t).1.1.
Proof.
  intros Hs (HI & HT & HF & HW). destruct (step_Good s t Hs (conj HI HT)). split_and!; [done | done | |].
  - revert HF. apply (step_recs FInv); [apply tx_step_FInv | intros p; by apply fresh_FInv].
  - revert HW. apply (step_recs WP); [apply tx_step_WP | apply fresh_WP].
Qed.

Lemma step_rank s t id : (rank_of s id <= rank_of (step s t).1.1 id)%nat.
Proof.
  unfold rank_of. pose proof (step_within (fun p p' => (rank p <= rank p')%nat) s t) as H.
  specialize (H ltac:(intros ?; lia) ltac:(intros ? ? ?; lia) (tx_step_rank _) id).
  destruct (g_props s !! id) as [p|], (g_props (step s t).1.1 !! id) as [p'|]; [done..| |lia].
  destruct H as (Es & Ef & _). unfold rank. rewrite Es, Ef. lia.
Qed.

Lemma step_terminal s t id p : g_props s !! id = Some p -> p_store p = SFinalized \/ p_store p = SFinFailed ->
  g_props (step s t).1.1 !! id = Some p.
Proof.
  intros Hp Ht.
  pose proof (step_within (fun p p' => p_store p = SFinalized \/ p_store p = SFinFailed -> p' = p) s t) as H.
  specialize (H ltac:(done) ltac:(intros p1 p2 p3 H12 H23 T; rewrite (H23 ltac:(by rewrite (H12 T))); auto)
                (tx_step_terminal _) id).
  rewrite Hp in H. destruct (g_props (step s t).1.1 !! id); [by rewrite (H Ht) | done].
Qed.

Lemma hrun_ind (I : state -> Prop) hs :
  Forall (fun h => forall s, I s -> I (hstep s h).1.1) hs -> forall s, I s -> I (hrun s hs).1.
Proof.
  induction 1 as [|h hs Hh _ IH]; intros s Hs; simpl; [done|].
  specialize (Hh s Hs). destruct (hstep s h) as [[s1 ok] ev]. specialize (IH s1 Hh). by destruct (hrun s1 hs).
Qed.

Lemma hrun_ops s ts : hrun s (HOp <$> ts) = run s ts.
Proof. revert s. induction ts as [|t ts IH]; intros s; simpl; [done|]. destruct (step s t) as [[s1 ok] ev]. by rewrite IH. Qed.

Lemma run_ind (I : state -> Prop) ts :
  Forall (fun t => forall s, I s -> I (step s t).1.1) ts -> forall s, I s -> I (run s ts).1.
Proof. intros H s. rewrite <- hrun_ops. by apply hrun_ind, Forall_fmap. Qed.

Lemma run_recs (X : prec -> Prop) s ts :
  (forall h p p', tx_step h p p' -> X p -> X p') -> Forall (fun t => forall p, fresh t p -> X p) ts ->
  recs X s -> recs X (run s ts).1.
Proof. intros HX HF. apply run_ind. eapply Forall_impl; [exact HF|]. intros t Ht s'. by apply step_recs. Qed.

Lemma run_Inv s ts : Inv s -> Inv (run s ts).1.
Proof. apply (run_recs PInv), Forall_true; [apply tx_step_PInv | apply fresh_PInv]. Qed.

Lemma run_FundsInv s ts : Forall sane_op ts -> FundsInv s -> FundsInv (run s ts).1.
Proof.
  intros Hs. apply (run_recs FInv); [apply tx_step_FInv|]. eapply Forall_impl; [exact Hs|]. intros t Ht p. by apply fresh_FInv.
Qed.

Lemma run_Good s ts : Forall sane_op ts -> Good s -> Good (run s ts).1.
Proof. intros Hs. apply run_ind. eapply Forall_impl; [exact Hs|]. intros t Ht s'. by apply step_Good. Qed.

Lemma run_rank s ts id : (rank_of s id <= rank_of (run s ts).1 id)%nat.
Proof.
  apply (run_ind (fun s' => (rank_of s id <= rank_of s' id)%nat)); [|done].
  apply Forall_true. intros t s' H. etrans; [exact H | apply step_rank].
Qed.

Lemma Good_init : Good init.
Proof. apply recs_and, recs_init. Qed.
Lemma AllInv_init : AllInv init.
Proof. split_and!; apply recs_init. Qed.

Lemma set_prop_lookup s id p : g_props (set_prop s id p) !! id = Some p.
Proof. apply lookup_insert. Qed.

Lemma alookup_nil f : alookup f [] = None.
Proof. reflexivity. Qed.

Lemma filter_none {A} (P : A -> bool) (l : list A) : (forall x, P x = false) -> List.filter P l = [].
Proof. intros H. induction l as [|a l IH]; simpl; [done|]. by rewrite H. Qed.

Definition ActInv (s : state) : Prop :=
  forall id p, g_props s !! id = Some p -> p_store p = SActive -> p_outcome p = OInProgress.

Lemma Inv_ActInv s : Inv s -> ActInv s.
Proof. intros HI id p Hp. apply (HI id p Hp). Qed.

Theorem config_only_passed_partial : forall s e id s' ev id' p,
  h_finalize s e id = Some (s', ev) -> EvConfig id' ∈ ev -> g_props s !! id = Some p ->
  trig_failed_but_passing p = false ->
  id' = id /\ p_store p = SPassed /\ p_outcome p = p_outcome p /\ rank_of s' id = 4%nat.
Proof.
  intros s e id s' ev id' p H Hin E Ht.
  destruct (config_event_sound s e id s' ev id' H Hin) as (-> & q & Eq & _ & Hst & _ & Htal & _ & Hr).
  assert (q = p) as -> by congruence. unfold trig_failed_but_passing in Ht.
  destruct Hst as [Hs|Hs]; [auto|]. by rewrite !bool_decide_eq_true_2 in Ht.
Qed.

Theorem finalize_config_passed : forall s e id s' ev id', Good s ->
  h_finalize s e id = Some (s', ev) -> EvConfig id' ∈ ev ->
  id' = id /\ exists p, g_props s !! id = Some p /\ p_type p = TConfig /\ p_store p = SPassed /\
    p_outcome p = OCompletedYes /\ tally (p_votes p) (p_pass p) = RPassed /\ rank_of s' id = 4%nat.
Proof.
  intros s e id s' ev id' [HI HT] H Hin.
  destruct (config_event_sound s e id s' ev id' H Hin) as (-> & p & E & Hty & Hst & _ & Htal & Hvne & Hr).
  assert (p_store p = SPassed) as Hp.
  { destruct Hst as [Hs|Hs]; [done|]. destruct (HT id p E) as (_ & _ & [?|?]%(fun Hf => Hf Hs)); done. }
  split; [done|]. exists p. repeat split; auto. by apply (HI id p E).
Qed.

Theorem step_config_passed s t id : sane_op t -> Good s -> EvConfig id ∈ (step s t).2 ->
  exists st p, end_reach s st /\ Good st /\ g_props st !! id = Some p /\ p_type p = TConfig /\ p_store p = SPassed /\
    p_outcome p = OCompletedYes /\ tally (p_votes p) (p_pass p) = RPassed.
Proof.
  intros Hs HG (st & s' & ev & Hr & Hf & Hin)%step_config.
  assert (Good st) as HG'.
  { apply recs_and. apply recs_and in HG. revert HG. by apply end_reach_recs; [apply tx_step_good|]. }
  destruct (finalize_config_passed _ _ _ _ _ _ HG' Hf Hin) as (_ & p & ? & ? & ? & ? & ? & _). by exists st, p.
Qed.

Lemma refundable_failed p : PInv p -> refundable (p_outcome p) = true -> p_store p = SFailed.
Proof.
  intros (_ & _ & Refund & _ & Final & Active & _ & Passed) Hr. specialize (Refund Hr).
  destruct (p_store p); [rewrite Active in Hr | rewrite Passed in Hr | | destruct Final | destruct Final]; auto; done.
Qed.

Lemma load_dump_lookup s ver blk (i : N) :
  load blk (dump s ver) !! i = (fun p => load_rec blk (dump_rec ver p)) <$> (g_props s !! i).
Proof.
  unfold load, dump. rewrite map_map. simpl.
  change (map (fun x : N * prec => (x.1, load_rec blk (dump_rec ver x.2))) (map_to_list (g_props s)))
    with (prod_map (fun x : N => x) (fun p => load_rec blk (dump_rec ver p)) <$> map_to_list (g_props s)).
  by rewrite list_to_map_fmap, list_to_map_to_list, lookup_fmap.
Qed.

Lemma load_funds_eq blk ind q : exists nf,
  fold_left (fun q kv => add_funds blk q kv.1 kv.2) ind q =
  with_newf (with_funds q (p_total q + asum ind) (fold_left (fun l kv => aupd kv.1 kv.2 l) ind (p_indiv q))) nf.
Proof.
  revert q. induction ind as [|[f a] ind IH]; intros q; simpl.
  - exists (p_newf q). destruct q; simpl. by rewrite Z.add_0_r.
  - destruct (IH (add_funds blk q f a)) as [nf ->]. exists nf. rewrite add_funds_eq. simpl. by rewrite Z.add_assoc.
Qed.

Lemma nodup_mid {A B} (f : A -> B) (l : list A) x r : NoDup (map f (l ++ x :: r)) -> f x ∉ map f l.
Proof. rewrite map_app. intros (_ & H & _)%NoDup_app Hin. apply (H _ Hin). left. Qed.

Lemma fold_aupd_app ind l0 : NoDup (map fst (l0 ++ ind)) ->
  fold_left (fun l (kv : N * Z) => aupd kv.1 kv.2 l) ind l0 = l0 ++ ind.
Proof.
  revert l0. induction ind as [|[f a] ind IH]; intros l0 H; simpl; [by rewrite app_nil_r|].
  rewrite (aupd_absent f) by apply (nodup_mid _ _ _ _ H). rewrite IH; by rewrite <- app_assoc.
Qed.

Lemma vote_update_last v pw o vs : v ∉ map v_val vs ->
  vote_update v o (vs ++ [mkVote v pw OpUnknown]) = Some (vs ++ [mkVote v pw o]).
Proof.
  induction vs as [|x r IH]; simpl; [by rewrite N.eqb_refl|]. intros [Hn Hl]%not_elem_of_cons.
  rewrite (proj2 (N.eqb_neq (v_val x) v)) by done. by rewrite IH.
Qed.

Lemma load_votes_app vs acc : NoDup (map v_val (acc ++ vs)) ->
  fold_left (fun acc v => match vote_update (v_val v) (v_op v) (vote_setup (v_val v) (v_power v) acc) with
                          | Some acc' => acc' | None => acc end) vs acc = acc ++ vs.
Proof.
  revert acc. induction vs as [|x vs IH]; intros acc H; simpl; [by rewrite app_nil_r|].
  pose proof (nodup_mid _ _ _ _ H). rewrite vote_setup_absent, vote_update_last by done.
  destruct x. rewrite IH; by rewrite <- app_assoc.
Qed.

Lemma load_votes_id vs : NoDup (map v_val vs) -> load_votes vs = vs.
Proof. apply (load_votes_app vs []). Qed.

(* all fields but [p_snapblk] and [p_newf], the bookkeeping of what the committed tree shows *)
Definition same_record (ver : Z) (p r : prec) : Prop :=
  p_store r = p_store p /\ p_status r = p_status p /\ p_outcome r = p_outcome p /\ p_type r = p_type p /\
  p_proposer r = p_proposer p /\ p_goal r = p_goal p /\ p_pass r = p_pass p /\ p_extra r = p_extra p /\
  p_total r = p_total p /\ p_indiv r = p_indiv p /\ p_votes r = p_votes p /\
  (p_store p = SActive -> p_fdl r = Z.max 0 (p_fdl p - ver) /\ p_vdl r = Z.max 0 (p_vdl p - ver)) /\
  (p_store p <> SActive -> p_fdl r = p_fdl p /\ p_vdl r = p_vdl p).

Lemma load_rec_eq blk q : WP q -> exists nf, load_rec blk q =
  mkP (p_store q) (p_status q) (p_outcome q) (p_type q) (p_proposer q) (p_fdl q) (p_vdl q) (p_goal q) (p_pass q)
      (asum (p_indiv q)) (p_indiv q) (p_votes q) blk nf (p_extra q).
Proof.
  intros [Hv Hi]. unfold load_rec, load_funds.
  destruct (load_funds_eq blk (p_indiv q) (with_newf (with_funds q 0 []) [])) as [nf ->]. simpl.
  rewrite load_votes_id, (fold_aupd_app _ []) by done. by exists nf.
Qed.

Lemma dump_rec_eq ver p : dump_rec ver p =
  with_deadlines p (if bool_decide (p_store p = SActive) then Z.max 0 (p_fdl p - ver) else p_fdl p)
                   (if bool_decide (p_store p = SActive) then Z.max 0 (p_vdl p - ver) else p_vdl p).
Proof. unfold dump_rec. destruct p; simpl. by case_bool_decide. Qed.

Theorem load_dump_record blk ver p : WP p -> p_total p = asum (p_indiv p) ->
  same_record ver p (load_rec blk (dump_rec ver p)).
Proof.
  intros HW Ht. rewrite dump_rec_eq. edestruct load_rec_eq as [nf ->]; [exact HW|].
  unfold same_record; simpl. rewrite <- Ht. split_and!; try reflexivity; intros Hs.
  - by rewrite !bool_decide_eq_true_2.
  - by rewrite !bool_decide_eq_false_2.
Qed.

Lemma same_record_invs ver p r : same_record ver p r ->
  (PInv p -> PInv r) /\ (TP p -> TP r) /\ (FInv p -> FInv r) /\ (WP p -> WP r) /\ rank r = rank p.
Proof.
  intros (E1 & E2 & E3 & _ & _ & E6 & E7 & E8 & E9 & E10 & E11 & _).
  (* none of them reads a field that a relaunch changes *)
  unfold PInv, TP, FInv, WP, rank. rewrite E1, E2, E3, E6, E7, E8, E9, E10, E11. auto 6.
Qed.

Theorem reload_preserves : forall s ver bals pool, FundsInv s -> WInv s ->
  forall id, match g_props s !! id with
             | Some p => exists r, g_props (reload s ver bals pool) !! id = Some r /\ same_record ver p r
             | None => g_props (reload s ver bals pool) !! id = None
             end.
Proof.
  intros s ver bals pool HF HW id. unfold reload. simpl. rewrite load_dump_lookup.
  destruct (g_props s !! id) as [p|] eqn:E; simpl; [|done].
  eexists. split; [done|]. apply load_dump_record; [exact (HW id p E) | exact (proj2 (HF id p E))].
Qed.

Theorem reload_allinv : forall s ver bals pool, AllInv s ->
  AllInv (reload s ver bals pool) /\ forall id, rank_of (reload s ver bals pool) id = rank_of s id.
Proof.
  intros s ver bals pool (HI & HT & HF & HW). pose proof (reload_preserves s ver bals pool HF HW) as HR.
  assert (forall id r, g_props (reload s ver bals pool) !! id = Some r ->
            exists p, g_props s !! id = Some p /\ same_record ver p r) as Hback.
  { intros id r Hr. specialize (HR id). destruct (g_props s !! id) as [p|]; [|congruence].
    destruct HR as (r' & Hr' & Hs). exists p. split; [done | congruence]. }
  split; [split_and!; intros id r (p & E & Hs%same_record_invs)%Hback; apply Hs; eauto|].
  intros id. unfold rank_of. specialize (HR id). destruct (g_props s !! id) as [p|]; [|by rewrite HR].
  destruct HR as (r & -> & Hs%same_record_invs). apply Hs.
Qed.

Definition sane_hop (h : hop) : Prop := match h with HOp t => sane_op t | HReload _ _ _ => True end.
