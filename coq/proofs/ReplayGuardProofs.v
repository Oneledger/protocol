(* ReplayGuardProofs.v — at-most-once through guard records: two facts about the id g that every
   operation other than [GRemove g] preserves, lifted to histories. *)
From Coq Require Import ZArith List Bool.
Import ListNotations.
From OL Require Import theories.ReplayGuard.

Lemma gmem_filter_other g g' l : Z.eqb g g' = false -> gmem g (filter (fun x => negb (Z.eqb g' x)) l) = gmem g l.
Proof.
  intros Hne. unfold gmem. induction l as [|x l IH]; [reflexivity|]. cbn [filter].
  destruct (Z.eqb_spec g' x) as [<-|_]; cbn [negb existsb]; rewrite IH, ?Hne; reflexivity.
Qed.

Lemma grun_preserves g (P : gst -> Prop) :
  (forall s o, never_removes g [o] = true -> P s -> P (gstep s o)) ->
  forall ops s, never_removes g ops = true -> P s -> P (grun s ops).
Proof.
  intros Hstep. induction ops as [|o r IH]; intros s Hn Hs; [exact Hs|].
  apply andb_prop in Hn as [Ho Hr]. apply IH; [exact Hr|]. apply Hstep; [cbn; rewrite Ho; reflexivity|exact Hs].
Qed.

Lemma never_removes_other g g' : never_removes g [GRemove g'] = true -> Z.eqb g g' = false.
Proof. cbn. rewrite andb_true_r. apply negb_true_iff. Qed.

Lemma gstep_taken g s o : never_removes g [o] = true -> gmem g (taken s) = true -> gmem g (taken (gstep s o)) = true.
Proof.
  intros Ho Hm. destruct o as [g'|g'|]; cbn [gstep]; [|cbn [taken]|exact Hm].
  - destruct (gmem g' (taken s)); [exact Hm|]. unfold gmem in *. cbn. rewrite Hm. apply orb_true_r.
  - rewrite gmem_filter_other by exact (never_removes_other g g' Ho). exact Hm.
Qed.

Definition gcounted (g : Z) (s : gst) : Prop := gcount g (effects s) = Nat.b2n (gmem g (taken s)).

Lemma gstep_counted g s o : never_removes g [o] = true -> gcounted g s -> gcounted g (gstep s o).
Proof.
  unfold gcounted. intros Ho Hc. destruct o as [g'|g'|]; cbn [gstep]; [|cbn [taken effects]|exact Hc].
  - destruct (gmem g' (taken s)) eqn:Hm; [exact Hc|]. unfold gcount, gmem in *. cbn.
    destruct (Z.eqb_spec g g') as [<-|_]; [rewrite Hm in Hc; cbn; rewrite Hc; reflexivity|exact Hc].
  - rewrite gmem_filter_other by exact (never_removes_other g g' Ho). exact Hc.
Qed.

Theorem guard_counted g ops : never_removes g ops = true -> gcounted g (grun ginit ops).
Proof. intros Hn. apply (grun_preserves g _ (gstep_counted g) ops ginit Hn). reflexivity. Qed.

Example guard_nonvacuous :
  let ops := [GSubmit 1; GSubmit 2; GSubmit 1; GRemove 2; GOther; GSubmit 2; GSubmit 1]%Z in
  never_removes 1%Z ops = true /\ effects (grun ginit ops) = [2; 2; 1]%Z /\ gcount 1%Z (effects (grun ginit ops)) = 1%nat.
Proof. cbn. repeat split. Qed.
