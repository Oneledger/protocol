(* AllegationProofs.v — lemmas about the allegation model (coq/theories/Allegation.v): what each
   handler and each half of a block does, stated once as a case analysis, and the invariants of
   whole histories that follow from them. *)
From stdpp Require Import gmap list.
From Coq Require Import ZArith Bool Lia.
From OL Require Import theories.Allegation.
Local Open Scope Z_scope.

Lemma fold_left_inv {A B} (f : A -> B -> A) (P : A -> Prop) l a :
  P a -> (forall a b, P a -> P (f a b)) -> P (fold_left f l a).
Proof. intros Ha Hf. revert a Ha. induction l; simpl; auto. Qed.

Definition is_tx_op (o : Op) : bool := match o with OBegin _ _ _ | OEnd _ _ => false | _ => true end.

(* a handler's guard is recorded only where a later proof reads it *)
Inductive tx_outcome (c : Cfg) (s : St) : Op -> St * list Ev -> Prop :=
| tx_refused o : tx_outcome c s o (s, [EvTx false])
| tx_opened id rep mal bh :
    tx_outcome c s (OAllege id rep mal bh)
      (set_tracker
         (clean (set_reqs s (<[id := {| r_rep := rep; r_mal := mal; r_h := bh; r_status := VOTING; r_votes := [] |}]> (reqs s))))
         (ins_sorted id (tracker s)),
       [EvTx true; EvOpened id rep mal])
| tx_voted id a ch r :
    is_active s a = true -> is_frozen s a = false -> reqs s !! id = Some r -> voted a (r_votes r) = false ->
    tx_outcome c s (OVote id a ch)
      (set_reqs s (<[id := {| r_rep := r_rep r; r_mal := r_mal r; r_h := r_h r; r_status := r_status r;
                              r_votes := ins_vote (a, ch) (r_votes r) |}]> (reqs s)),
       [EvTx true; EvVote id a ch])
| tx_released a l :
    susp s !! a = Some l -> lvh_frozen l = true ->
    l_status l = MISSED \/ l_status l = BYZ /\ now s > l_fat l + releaseDays c * DAY ->
    tx_outcome c s (ORelease a)
      (set_susp s (<[a := {| l_status := l_status l; l_fh := l_fh l; l_fat := l_fat l;
                            l_rh := height s; l_rat := Some (now s) |}]> (susp s)),
       [EvTx true; EvReleased a (height s) (now s)])
| tx_staked kind v envok delta :
    tx_outcome c s (OStake kind v envok delta)
      (set_stake s (<[v := default 0 (stake s !! v) + delta]> (stake s)) (bounty s), [EvTx true]).

Lemma step_tx c s o : is_tx_op o = true -> tx_outcome c s o (step c s o).
Proof.
  destruct o as [h t low|id rep mal bh|id a ch|a|k v ok d| |q ord]; try discriminate; intros _; simpl.
  - unfold do_allege. destruct (_ || request_exists _ _); constructor.
  - unfold do_vote. destruct (is_frozen s a || _) eqn:G; [constructor|].
    destruct (reqs s !! id) as [r|] eqn:Hr; [|constructor].
    destruct (_ || voted _ _) eqn:G'; constructor; auto.
    all: apply orb_false_elim in G as [? G], G' as [_ ?]; rewrite ?negb_false_iff in *; auto.
  - unfold do_release. destruct (susp s !! a) as [l|] eqn:Hl; [|constructor].
    destruct (_ || _) eqn:G; constructor; auto; apply orb_false_elim in G as [G1 G2]; rewrite negb_false_iff in *; auto.
    unfold release_ready in G2. destruct (_ =? MISSED) eqn:?; [lia|]. destruct (_ =? BYZ) eqn:?; [lia|discriminate].
  - unfold do_stake. destruct (is_frozen s v); [constructor|].
    destruct (_ && _); [constructor|]. destruct ok; constructor.
  - constructor.
Qed.

Lemma frozen_not_accused_again : forall s id rep mal bh,
  is_frozen s mal = true -> do_allege s id rep mal bh = (s, [EvTx false]).
Proof. intros. unfold do_allege. rewrite H. rewrite orb_true_r. reflexivity. Qed.

Lemma tx_frame c s o : is_tx_op o = true ->
  malicious (step c s o).1 = malicious s /\ height (step c s o).1 = height s /\
  forall a, o <> ORelease a -> susp (step c s o).1 !! a = susp s !! a.
Proof.
  intros T. destruct (step_tx c s o T); simpl; auto.
  repeat split. intros b Hb. apply lookup_insert_ne. congruence.
Qed.

Lemma penalty_nonneg : forall c st, 0 < penDec c -> 0 <= penBase c -> 0 <= st -> 0 <= penalty c st.
Proof. intros. unfold penalty. apply Z.div_pos; nia. Qed.

Lemma alleg_run_cons c s o ops :
  run c s (o :: ops) = ((run c (step c s o).1 ops).1, (step c s o).2 ++ (run c (step c s o).1 ops).2).
Proof. simpl. destruct (step c s o) as [s1 e1]. simpl. destruct (run c s1 ops). reflexivity. Qed.

Lemma alleg_run_app c ops1 ops2 s :
  run c s (ops1 ++ ops2) =
  ((run c (run c s ops1).1 ops2).1, (run c s ops1).2 ++ (run c (run c s ops1).1 ops2).2).
Proof.
  revert s. induction ops1 as [|o ops1 IH]; intros s.
  - simpl. destruct (run c s ops2). reflexivity.
  - rewrite <- app_comm_cons, !alleg_run_cons, IH. simpl. rewrite app_assoc. reflexivity.
Qed.

Lemma alleg_run_inv c (Q : Op -> Prop) (P : St -> list Ev -> Prop) :
  (forall s log o, Q o -> P s log -> P (step c s o).1 (log ++ (step c s o).2)) ->
  forall ops s log, Forall Q ops -> P s log -> P (run c s ops).1 (log ++ (run c s ops).2).
Proof.
  intros HP. induction ops as [|o ops IH]; intros s log HQ H.
  - simpl. rewrite app_nil_r. exact H.
  - apply Forall_cons in HQ as [Ho HQ]. rewrite alleg_run_cons. simpl. rewrite app_assoc. auto.
Qed.

Lemma alleg_run_event c ops s e : e ∈ (run c s ops).2 ->
  exists ops1 o ops2, ops = ops1 ++ o :: ops2 /\ e ∈ (step c (run c s ops1).1 o).2.
Proof.
  revert s. induction ops as [|o ops IH]; intros s; [intros H; inversion H|].
  rewrite alleg_run_cons. simpl. intros [H|H]%elem_of_app.
  - exists [], o, ops. auto.
  - destruct (IH _ H) as (ops1 & o' & ops2 & -> & H'). exists (o :: ops1), o', ops2.
    rewrite alleg_run_cons. auto.
Qed.

Lemma txs_frame c txs s : forallb is_tx_op txs = true ->
  malicious (run c s txs).1 = malicious s /\ height (run c s txs).1 = height s.
Proof.
  intros H. refine (alleg_run_inv c (fun o => is_tx_op o = true)
    (fun s' _ => malicious s' = malicious s /\ height s' = height s) _ txs s [] _ (conj eq_refl eq_refl)).
  - intros s' _ o Ho [A B]. destruct (tx_frame c s' o Ho) as (A' & B' & _). split; congruence.
  - apply Forall_forall. intros o Ho. apply (proj1 (forallb_forall _ _) H), elem_of_list_In, Ho.
Qed.

Lemma inb_true_iff x l : inb x l = true <-> x ∈ l.
Proof.
  unfold inb. rewrite existsb_exists. setoid_rewrite Z.eqb_eq. setoid_rewrite <- elem_of_list_In.
  split; [intros (y & H & ->); exact H|eauto].
Qed.

Lemma frozen_in_keys s a : is_frozen s a = true -> inb a (frozen_keys s) = true.
Proof.
  intros Hf. apply inb_true_iff, elem_of_list_filter. split; [exact Hf|].
  unfold is_frozen in Hf. destruct (susp s !! a) as [l|] eqn:E; [|discriminate].
  apply elem_of_list_fmap. exists (a, l). split; [reflexivity|]. apply elem_of_map_to_list, E.
Qed.

Lemma byz_frozen_is_frozen s a : byz_frozen_m s a = true -> is_frozen s a = true.
Proof.
  unfold byz_frozen_m, is_frozen. destruct (susp s !! a); [|discriminate]. apply andb_true_iff.
Qed.

Definition not_vote_ev (e : Ev) : Prop := match e with EvVote _ _ _ => False | _ => True end.

Definition scan_inv (s : St) (acc : St * list Z * list Ev) : Prop :=
  reqs acc.1.1 = reqs s /\ Forall not_vote_ev acc.2 /\
  forall a, is_frozen s a = true -> inb a acc.1.2 = true /\ susp acc.1.1 !! a = susp s !! a.

Lemma scan_one_inv s h t c acc x : scan_inv s acc -> scan_inv s (scan_one h t c acc x).
Proof.
  destruct acc as [[s1 m] ev]. intros H. unfold scan_one.
  destruct (inb x m) eqn:Ex; [exact H|]. destruct (vstat s1 !! x) as [v|]; [|exact H].
  destruct (_ && _); [|exact H]. destruct H as (A & B & C). split; [exact A|]. split.
  - apply Forall_app. split; [exact B|repeat constructor].
  - (* the scan skips the members of the exclusion list and only adds to it *)
    intros a Ha. destruct (C a Ha) as [C1 C2]. simpl in *. rewrite C1, orb_true_r.
    rewrite lookup_insert_ne by congruence. auto.
Qed.

Lemma begin_block_spec c s h t low : let r := begin_block c s h t low in
  reqs r.1 = reqs s /\ height r.1 = h /\ Forall not_vote_ev r.2 /\
  forall a, is_frozen s a = true -> inb a (malicious r.1) = true /\ susp r.1 !! a = susp s !! a.
Proof.
  assert (H0 : scan_inv s (s, frozen_keys s, [])) by (repeat split; simpl; auto using frozen_in_keys).
  unfold begin_block. destruct (h <=? blockVotesDiff c).
  - destruct H0 as (A & B & C). repeat split; auto; apply C; assumption.
  - apply (fold_left_inv (scan_one h t c) _ low) in H0 as (A & B & C); [|intros; apply scan_one_inv; assumption].
    destruct (fold_left _ _ _) as [[s1 m] ev]. repeat split; auto; apply C; assumption.
Qed.

Definition convict (s : St) (a : Z) : St :=
  set_susp s (<[a := {| l_status := BYZ; l_fh := height s; l_fat := now s; l_rh := 0; l_rat := None |}]> (susp s)).
Definition penalty_applied (c : Cfg) (s : St) (a : Z) : St :=
  let amt := default 0 (stake s !! a) in
  let p := penalty c amt in
  if 0 <=? amt - p then set_stake s (<[a := amt - p]> (stake s)) (bounty s + bounty_of c p) else s.
Definition penalty_events (c : Cfg) (s : St) (a : Z) : list Ev :=
  let amt := default 0 (stake s !! a) in
  let p := penalty c amt in
  if 0 <=? amt - p then [EvPenalty a amt p (bounty_of c p)] else [].

Inductive req_outcome (c : Cfg) (q : list (Z * Z)) (active req : Z) (s : St) (dec : list Z) (ev : list Ev) (id : Z) :
    St * list Z * list Ev -> Prop :=
| ro_open :
    (forall r, reqs s !! id = Some r ->
       guilty_x c (count_choice YES (r_votes r)) req = false /\ innocent_x c (count_choice NO (r_votes r)) req = false) ->
    req_outcome c q active req s dec ev id (s, dec, ev)
| ro_innocent r : reqs s !! id = Some r ->
    guilty_x c (count_choice YES (r_votes r)) req = false -> innocent_x c (count_choice NO (r_votes r)) req = true ->
    req_outcome c q active req s dec ev id
      (set_reqs s (delete id (reqs s)), id :: dec,
       ev ++ [EvVerdict id (r_mal r) INNOCENT (count_choice YES (r_votes r)) (count_choice NO (r_votes r)) req active])
| ro_norecord r : reqs s !! id = Some r ->
    guilty_x c (count_choice YES (r_votes r)) req = true -> inb (r_mal r) q.*1 = false ->
    req_outcome c q active req s dec ev id (convict s (r_mal r), dec, ev ++ [EvFrozen (r_mal r) BYZ (height s)])
| ro_guilty r : reqs s !! id = Some r ->
    guilty_x c (count_choice YES (r_votes r)) req = true -> inb (r_mal r) q.*1 = true ->
    req_outcome c q active req s dec ev id
      (let s2 := penalty_applied c (convict s (r_mal r)) (r_mal r) in set_reqs s2 (delete id (reqs s2)), id :: dec,
       (ev ++ [EvFrozen (r_mal r) BYZ (height s)]) ++ penalty_events c (convict s (r_mal r)) (r_mal r) ++
       [EvVerdict id (r_mal r) GUILTY (count_choice YES (r_votes r)) (count_choice NO (r_votes r)) req active]).

Lemma process_req_outcome c q active req s dec ev id :
  req_outcome c q active req s dec ev id (process_req c q active req (s, dec, ev) id).
Proof.
  unfold process_req. destruct (reqs s !! id) as [r|] eqn:Hr; [|apply ro_open; congruence].
  destruct (guilty_x c _ req) eqn:G.
  - destruct (inb (r_mal r) q.*1) eqn:Q; [apply (ro_guilty _ _ _ _ _ _ _ _ r)|apply (ro_norecord _ _ _ _ _ _ _ _ r)]; assumption.
  - destruct (innocent_x c _ req) eqn:I; [apply (ro_innocent _ _ _ _ _ _ _ _ r); assumption|].
    apply ro_open. intros ? [= <-]%(eq_trans (eq_sym Hr)). auto.
Qed.

Lemma penalty_applied_cases c s a :
  let amt := default 0 (stake s !! a) in
  let p := penalty c amt in
  p <= amt /\ penalty_applied c s a = set_stake s (<[a := amt - p]> (stake s)) (bounty s + bounty_of c p) \/
  amt < p /\ penalty_applied c s a = s.
Proof. unfold penalty_applied. destruct (0 <=? _) eqn:E; [left|right]; split; auto; lia. Qed.

Lemma penalty_applied_frame c s a :
  reqs (penalty_applied c s a) = reqs s /\ susp (penalty_applied c s a) = susp s /\ vstat (penalty_applied c s a) = vstat s.
Proof. destruct (penalty_applied_cases c s a) as [[_ ->]|[_ ->]]; auto. Qed.

Inductive tally_event (c : Cfg) (rq0 : gmap Z Req) (req active : Z) : Ev -> Prop :=
| te_frozen a k h : tally_event c rq0 req active (EvFrozen a k h)
| te_penalty a st p b : tally_event c rq0 req active (EvPenalty a st p b)
| te_verdict id r st : rq0 !! id = Some r ->
    st = GUILTY /\ guilty_x c (count_choice YES (r_votes r)) req = true \/
    st = INNOCENT /\ guilty_x c (count_choice YES (r_votes r)) req = false /\
      innocent_x c (count_choice NO (r_votes r)) req = true ->
    tally_event c rq0 req active
      (EvVerdict id (r_mal r) st (count_choice YES (r_votes r)) (count_choice NO (r_votes r)) req active).

(* requests only disappear along the fold, hence a tally over any request map [rq0] that holds the
   requests of [acc] *)
Definition tracker_reaches (c : Cfg) (req active : Z) (acc acc' : St * list Z * list Ev) : Prop :=
  reqs acc'.1.1 ⊆ reqs acc.1.1 /\ vstat acc'.1.1 = vstat acc.1.1 /\
  forall rq0, reqs acc.1.1 ⊆ rq0 -> Forall (tally_event c rq0 req active) acc.2 ->
    Forall (tally_event c rq0 req active) acc'.2.

Lemma process_req_sound c q active req acc id :
  tracker_reaches c req active acc (process_req c q active req acc id).
Proof.
  unfold tracker_reaches. destruct acc as [[s dec] ev].
  destruct (process_req_outcome c q active req s dec ev id) as [_|r Hr G I|r Hr G _|r Hr G _]; cbn [fst snd]; [auto|..].
  - split; [apply delete_subseteq|]. split; [reflexivity|]. intros rq0 Hsub F.
    apply Forall_app. split; [exact F|]. apply Forall_singleton, te_verdict; eauto using lookup_weaken.
  - split; [reflexivity|]. split; [reflexivity|]. intros rq0 _ F. apply Forall_app. split; [exact F|repeat constructor].
  - destruct (penalty_applied_frame c (convict s (r_mal r)) (r_mal r)) as (E1 & _ & E2).
    split; [cbn [reqs set_reqs]; rewrite E1; apply delete_subseteq|]. split; [exact E2|]. intros rq0 Hsub F.
    rewrite !Forall_app. repeat split; [exact F|repeat constructor|unfold penalty_events; destruct (0 <=? _); repeat constructor|].
    apply Forall_singleton, te_verdict; eauto using lookup_weaken.
Qed.

Lemma process_fold_sound c q active req ids acc :
  tracker_reaches c req active acc (fold_left (process_req c q active req) ids acc).
Proof.
  apply fold_left_inv; [repeat split; auto|]. intros acc' id (A & B & C).
  destruct (process_req_sound c q active req acc' id) as (A' & B' & C').
  split; [etrans; eassumption|]. split; [congruence|]. intros rq0 Hsub F. apply C'; [etrans; eassumption|auto].
Qed.

Lemma byz_frozen_convict s b a : byz_frozen_m s a = true -> byz_frozen_m (convict s b) a = true.
Proof.
  unfold byz_frozen_m, convict. simpl. destruct (decide (b = a)) as [->|N].
  - rewrite lookup_insert. reflexivity.
  - rewrite lookup_insert_ne by exact N. auto.
Qed.

Lemma process_req_byz c q active req acc id a :
  byz_frozen_m acc.1.1 a = true -> byz_frozen_m (process_req c q active req acc id).1.1 a = true.
Proof.
  destruct acc as [[s dec] ev]. intros H.
  destruct (process_req_outcome c q active req s dec ev id); cbn [fst snd]; auto using byz_frozen_convict.
  unfold byz_frozen_m. cbn [susp set_reqs]. rewrite (proj1 (proj2 (penalty_applied_frame _ _ _))).
  apply (byz_frozen_convict _ _ _ H).
Qed.

Lemma process_req_left c q active req acc id r :
  reqs (process_req c q active req acc id).1.1 !! id = Some r -> guilty_without_record c q req r = false ->
  verdict_x c (count_choice YES (r_votes r)) (count_choice NO (r_votes r)) req = VOTING.
Proof.
  destruct acc as [[s dec] ev].
  destruct (process_req_outcome c q active req s dec ev id) as [V|r0 _ _ _|r0 Hr G Q|r0 _ _ _]; cbn [fst snd reqs set_reqs];
    rewrite ?lookup_delete; try discriminate.
  - intros Hr _. destruct (V r Hr) as [G I]. unfold verdict_x. rewrite G, I. reflexivity.
  - cbn. rewrite Hr. intros [= <-]. unfold guilty_without_record. rewrite G, Q. discriminate.
Qed.

Lemma process_fold_closed c q active req ids acc id r :
  id ∈ ids -> reqs (fold_left (process_req c q active req) ids acc).1.1 !! id = Some r ->
  guilty_without_record c q req r = false ->
  verdict_x c (count_choice YES (r_votes r)) (count_choice NO (r_votes r)) req = VOTING.
Proof.
  revert acc. induction ids as [|x ids IH]; simpl; intros acc Hin Hl; [inversion Hin|].
  destruct (decide (id = x)) as [->|Hne].
  - eapply process_req_left, lookup_weaken; [exact Hl|]. apply process_fold_sound.
  - apply elem_of_cons in Hin as [?|Hin]; [contradiction|exact (IH _ Hin Hl)].
Qed.

Lemma clean_go_sub ids seen rq : clean_go ids seen rq ⊆ rq.
Proof.
  revert seen rq. induction ids as [|id ids IH]; simpl; intros seen rq; [reflexivity|].
  destruct (rq !! id) as [r|]; [|apply IH]. destruct (inb (r_mal r) seen); [|apply IH].
  etrans; [apply IH|apply delete_subseteq].
Qed.

Lemma range_order_all tr ord i : i ∈ tr -> i ∈ range_order tr ord.
Proof.
  intros Hi. apply elem_of_app. destruct (inb i ord) eqn:E; [left|right]; apply elem_of_list_filter.
  - split; [apply inb_true_iff, Hi|apply elem_of_remove_dups, inb_true_iff, E].
  - auto.
Qed.

Definition commit_keys (x : St) : St := set_ckeys x (map_to_list (reqs x)).*1.

(* [eo_run]: what the tracker starts from ([s2], the cleaned state with the election result) and the
   ids it ranges over are variables with the facts that matter *)
Inductive end_outcome (c : Cfg) (s : St) (q : list (Z * Z)) (ord : list Z) : St * list Ev -> Prop :=
| eo_low : (height s <=? 1) = true -> end_outcome c s q ord (commit_keys s, [])
| eo_idle : (height s <=? 1) = false ->
    ((elect c s q).2 =? 0) = true \/ (voteDec c <=? 0) || (allegDec c <=? 0) = true ->
    end_outcome c s q ord (commit_keys (set_vstat s (elect c s q).1), [])
| eo_run s2 ids :
    reqs s2 ⊆ reqs s -> susp s2 = susp s -> vstat s2 = (elect c s q).1 -> (forall i, i ∈ tracker s -> i ∈ ids) ->
    end_outcome c s q ord
      (let r := fold_left (process_req c q (elect c s q).2 (required_x c (elect c s q).2)) ids (s2, [], []) in
       (commit_keys (set_tracker r.1.1 (filter (fun i => inb i r.1.2 = false) (tracker r.1.1))), r.2)).

Lemma end_block_outcome c s q ord : end_outcome c s q ord (end_block c s q ord).
Proof.
  unfold end_block. destruct (height s <=? 1) eqn:Hh; [apply eo_low, Hh|].
  pose proof (eo_idle c s q ord Hh) as I.
  pose proof (eo_run c s q ord (clean (set_vstat s (elect c s q).1))
    (range_order (tracker (clean (set_vstat s (elect c s q).1))) ord)) as R.
  destruct (elect c s q) as [vs active]. cbn [fst snd] in *.
  destruct (active =? 0); [auto|]. destruct (_ || _); [auto|].
  specialize (R (clean_go_sub _ _ _) eq_refl eq_refl (fun i => range_order_all _ ord i)).
  destruct (fold_left _ _ _) as [[s3 dec] ev]. exact R.
Qed.

Lemma end_block_sound c s q ord : let r := end_block c s q ord in
  reqs r.1 ⊆ reqs s /\
  Forall (tally_event c (reqs s) (required_x c (elect c s q).2) (elect c s q).2) r.2 /\
  (1 < height s -> vstat r.1 = (elect c s q).1).
Proof.
  destruct (end_block_outcome c s q ord) as [?| |s2 ids Hs2 _ Hv _]; simpl;
    [repeat split; auto; lia|repeat split; auto|].
  destruct (process_fold_sound c q (elect c s q).2 (required_x c (elect c s q).2) ids (s2, [], []))
    as (A & B & C). simpl in A, B, C.
  split; [etrans; [exact A|exact Hs2]|]. split; [apply C; [exact Hs2|constructor]|intros _; congruence].
Qed.

Lemma end_block_byz c s q ord a :
  byz_frozen_m s a = true -> byz_frozen_m (end_block c s q ord).1 a = true.
Proof.
  intros H. destruct (end_block_outcome c s q ord) as [| |s2 ids _ Hs2 _ _]; simpl; auto.
  apply (fold_left_inv _ (fun acc => byz_frozen_m acc.1.1 a = true)); [|intros acc id; apply process_req_byz].
  unfold byz_frozen_m in *. simpl. rewrite Hs2. exact H.
Qed.

Lemma elect_one_status : forall c mal h vs cnt q,
  let upd := (minPower c <=? q.2) && (cnt <? topN c) && negb (inb q.1 mal) in
  active_in (elect_one c mal h (vs, cnt) q).1 q.1 = upd /\
  (elect_one c mal h (vs, cnt) q).2 = (if upd then cnt + 1 else cnt) /\
  (forall b, b <> q.1 -> (elect_one c mal h (vs, cnt) q).1 !! b = vs !! b).
Proof.
  intros c mal h vs cnt q upd. unfold elect_one. fold upd. unfold active_in.
  destruct (vs !! q.1) as [v|] eqn:E; simpl; [destruct (Bool.eqb (v_active v) upd) eqn:B; simpl|];
    [rewrite E; apply eqb_prop in B; auto|..];
    rewrite lookup_insert; repeat split; intros b Hb; apply lookup_insert_ne; congruence.
Qed.

Lemma elect_fold_le c mal h q vs cnt :
  cnt <= (fold_left (elect_one c mal h) q (vs, cnt)).2 <= Z.max cnt (topN c).
Proof.
  apply (fold_left_inv _ (fun acc => cnt <= acc.2 <= Z.max cnt (topN c))); [simpl; lia|].
  intros [vs1 cnt1] x H. destruct (elect_one_status c mal h vs1 cnt1 x) as (_ & -> & _). simpl in H.
  destruct (_ <=? _); simpl; [|lia]. destruct (cnt1 <? topN c) eqn:?; simpl; [|lia]. destruct (negb _); lia.
Qed.

Lemma elect_excludes c mal h a q acc : inb a mal = true ->
  a ∈ q.*1 \/ active_in acc.1 a = false ->
  active_in (fold_left (elect_one c mal h) q acc).1 a = false.
Proof.
  intros Hm. revert acc. induction q as [|x q IH]; simpl; intros [vs cnt] H.
  - destruct H as [[]%elem_of_nil|H]. exact H.
  - apply IH. destruct (elect_one_status c mal h vs cnt x) as (A & _ & F).
    destruct (decide (a = x.1)) as [->|N].
    + right. rewrite A, Hm. apply andb_false_r.
    + destruct H as [[?|?]%elem_of_cons|H]; [contradiction|auto|right].
      unfold active_in. rewrite F by exact N. exact H.
Qed.

Lemma end_excludes c s q ord a : 1 < height s -> inb a (malicious s) = true -> a ∈ q.*1 ->
  is_active (end_block c s q ord).1 a = false.
Proof.
  intros Hh Hm Hq. unfold is_active. rewrite (proj2 (proj2 (end_block_sound c s q ord)) Hh).
  apply (elect_excludes c _ _ a q (vstat s, 0) Hm). auto.
Qed.

Definition votes_inv (s : St) (log : list Ev) : Prop :=
  forall id r, reqs s !! id = Some r ->
    NoDup (r_votes r).*1 /\ forall a ch, (a, ch) ∈ r_votes r -> EvVote id a ch ∈ log.

Lemma voted_false a vs : voted a vs = false -> a ∉ vs.*1.
Proof.
  induction vs as [|v vs IH]; simpl; [intros _; apply not_elem_of_nil|].
  intros [H1 H2]%orb_false_elim. apply not_elem_of_cons. split; [lia|auto].
Qed.

Lemma ins_vote_perm v vs : ins_vote v vs ≡ₚ v :: vs.
Proof.
  induction vs as [|w vs IH]; simpl; [reflexivity|].
  destruct (v.1 <? w.1); [reflexivity|]. rewrite IH. apply Permutation_swap.
Qed.

Lemma votes_inv_weaken s s' log ev : reqs s' ⊆ reqs s -> votes_inv s log -> votes_inv s' (log ++ ev).
Proof.
  intros Hsub Inv id r Hr. destruct (Inv id r (lookup_weaken _ _ _ _ Hr Hsub)) as [A B].
  split; [exact A|]. intros a ch Hin. apply elem_of_app. auto.
Qed.

Lemma step_votes_inv c s o log : votes_inv s log -> votes_inv (step c s o).1 (log ++ (step c s o).2).
Proof.
  intros Inv. pose proof (fun s' ev H => votes_inv_weaken s s' log ev H Inv) as W.
  destruct (is_tx_op o) eqn:T.
  - destruct (step_tx c s o T) as [o|id rep mal bh|id a ch r _ _ Hr Hv| |]; try (apply W; reflexivity);
      intros k r' Hk; simpl in Hk.
    + eapply lookup_weaken in Hk; [|apply clean_go_sub].
      apply lookup_insert_Some in Hk as [[_ <-]|[_ Hk]]; [split; [constructor|intros ? ? []%elem_of_nil]|].
      apply (W s); [reflexivity|exact Hk].
    + apply lookup_insert_Some in Hk as [[<- <-]|[_ Hk]]; [|apply (W s); auto].
      destruct (Inv id r Hr) as [A B]. simpl. split.
      * rewrite ins_vote_perm. apply NoDup_cons. split; [apply voted_false, Hv|exact A].
      * intros a' ch'. rewrite ins_vote_perm, elem_of_cons, elem_of_app. intros [[= -> ->]|Hin]; [right|left; auto].
        apply elem_of_list_further, elem_of_list_here.
  - destruct o as [h t low| | | | | |q ord]; try discriminate T; simpl; apply W.
    + rewrite (proj1 (begin_block_spec c s h t low)). reflexivity.
    + apply end_block_sound.
Qed.

Lemma reachable_votes_inv c stk ops :
  votes_inv (run c (init_with stk) ops).1 (run c (init_with stk) ops).2.
Proof.
  apply (alleg_run_inv c (fun _ => True) votes_inv (fun s log o _ => step_votes_inv c s o log) ops _ []).
  - apply Forall_true. auto.
  - intros id r H. simpl in H. rewrite lookup_empty in H. discriminate.
Qed.

Definition verdict_certified (c : Cfg) (log : list Ev) (e : Ev) : Prop :=
  match e with
  | EvVerdict id mal st yes no req active =>
      req = required_x c active /\
      ((st = GUILTY /\ guilty_x c yes req = true) \/
       (st = INNOCENT /\ guilty_x c yes req = false /\ innocent_x c no req = true)) /\
      exists ys ns : list Z,
        NoDup ys /\ NoDup ns /\ Z.of_nat (length ys) = yes /\ Z.of_nat (length ns) = no /\
        (forall a, a ∈ ys -> EvVote id a YES ∈ log) /\ (forall a, a ∈ ns -> EvVote id a NO ∈ log)
  | _ => True
  end.

Lemma NoDup_filter_fst (P : Z * Z -> Prop) `{!forall x, Decision (P x)} (l : list (Z * Z)) :
  NoDup l.*1 -> NoDup (filter P l).*1.
Proof.
  induction l as [|x l IH]; simpl; [constructor|]. rewrite NoDup_cons, filter_cons. intros [H1 H2].
  destruct (decide (P x)); simpl; auto. apply NoDup_cons. split; [|auto].
  rewrite elem_of_list_fmap in *. intros (y & ? & [_ ?]%elem_of_list_filter). eauto.
Qed.

Lemma voters_of (vs : list (Z * Z)) ch id (log : list Ev) :
  NoDup vs.*1 -> (forall a c0, (a, c0) ∈ vs -> EvVote id a c0 ∈ log) ->
  exists l : list Z, NoDup l /\ Z.of_nat (length l) = count_choice ch vs /\ forall a, a ∈ l -> EvVote id a ch ∈ log.
Proof.
  intros ND Hlog. exists (filter (fun v : Z * Z => v.2 = ch) vs).*1. repeat split.
  - apply NoDup_filter_fst, ND.
  - unfold count_choice. rewrite fmap_length. reflexivity.
  - intros a ([a' c'] & -> & [<- Hin]%elem_of_list_filter)%elem_of_list_fmap. auto.
Qed.

Lemma end_block_certified c s q ord log : votes_inv s log ->
  Forall (verdict_certified c log) (end_block c s q ord).2.
Proof.
  intros Inv. eapply Forall_impl; [apply end_block_sound|]. intros e [| |id r st Hr Hv]; simpl; auto.
  destruct (Inv _ _ Hr) as [ND Hlog]. split; [reflexivity|]. split; [exact Hv|].
  destruct (voters_of (r_votes r) YES id log ND Hlog) as (ys & ? & ? & ?).
  destruct (voters_of (r_votes r) NO id log ND Hlog) as (ns & ? & ? & ?).
  exists ys, ns. auto 10.
Qed.

Lemma step_vote_event c s o id a ch : EvVote id a ch ∈ (step c s o).2 ->
  o = OVote id a ch /\ is_active s a = true /\ is_frozen s a = false.
Proof.
  (* every step but an accepted vote emits non-vote events only, which makes the premise absurd *)
  assert (N : forall ev (G : Prop), Forall not_vote_ev ev -> EvVote id a ch ∈ ev -> G).
  { intros ev G F Hin. destruct (proj1 (Forall_forall _ _) F _ Hin). }
  destruct (is_tx_op o) eqn:T.
  - destruct (step_tx c s o T) as [| |id' a' ch' r A F _ _| |]; try solve [apply N; repeat constructor]; simpl.
    intros [[=]|[[= <- <- <-]|[]%elem_of_nil]%elem_of_cons]%elem_of_cons. auto.
  - destruct o as [h t low| | | | | |q ord]; try discriminate T; simpl; apply N.
    + apply begin_block_spec.
    + eapply Forall_impl; [apply end_block_sound|]. intros e []; exact I.
Qed.

Lemma count_active_all vs ch votes : stale_votes vs votes = false ->
  count_active_choice vs ch votes = count_choice ch votes.
Proof.
  unfold stale_votes, count_active_choice, count_choice. intros H%negb_false_iff. do 2 f_equal.
  induction votes as [|v votes IH]; [reflexivity|]. apply andb_true_iff in H as [H1 H2].
  rewrite !filter_cons, IH by exact H2. destruct (decide (v.2 = ch)).
  - rewrite decide_True by auto. reflexivity.
  - rewrite decide_False by tauto. reflexivity.
Qed.
