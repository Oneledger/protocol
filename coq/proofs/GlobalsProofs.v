(* GlobalsProofs.v — the persisted tracker state does not depend on node-local inputs. *)
From Coq Require Import String List Bool Arith Lia.
From OL Require Import theories.Globals.
Import ListNotations.

Definition consensus_step (t : tracker) : tracker :=
  match t_state t with
  | 0 => set_state t 1
  | 1 => if Nat.ltb 0 (t_votes t) then set_state t 2 else t
  | 2 => if t_finalized t then set_state t 3 else t
  | _ => t
  end.

Lemma persisted_is_consensus_step t l :
  l_write_ok l = true -> persisted false t l = consensus_step t.
Proof.
  intros H. unfold persisted, transition, consensus_step.
  destruct (t_state t) as [|[|[|n]]]; [| | |reflexivity].
  - unfold broadcasting. rewrite H. destruct (l_flag l); reflexivity.
  - unfold finalizing. rewrite H.
    destruct (l_flag l), (l_self_voted l), (l_bjob l) as [[[] []]|], (l_fjob l), (Nat.ltb 0 (t_votes t)); reflexivity.
  - unfold finalization. rewrite H.
    destruct (t_finalized t), (l_flag l), (l_self_voted l); reflexivity.
Qed.

Theorem run_local_independent h1 : forall h2 t,
  same_inputs h1 h2 -> writes_ok h1 = true -> writes_ok h2 = true ->
  run false t h1 = run false t h2.
Proof.
  induction h1 as [|[c1 l1] h1 IH]; intros [|[c2 l2] h2] t Hs W1 W2; try discriminate; [reflexivity|].
  injection Hs as -> Hs. apply andb_true_iff in W1 as [Wa W1], W2 as [Wb W2].
  destruct c2; cbn [run]; [|rewrite !persisted_is_consensus_step by assumption]; now apply IH.
Qed.

Definition node_with_job : local :=
  {| l_flag := true; l_self_voted := false; l_bjob := Some (true, false); l_fjob := false; l_write_ok := true |}.
Definition node_restarted_without_job : local :=
  {| l_flag := true; l_self_voted := false; l_bjob := None; l_fjob := false; l_write_ok := true |}.
Definition fresh_node : local :=
  {| l_flag := false; l_self_voted := false; l_bjob := None; l_fjob := false; l_write_ok := true |}.

Example old_finalizing_node_dependent :
  let t := {| t_state := 1; t_votes := 1; t_finalized := false |} in
  t_state (persisted true t node_with_job) = 2 /\
  t_state (persisted true t fresh_node) = 2 /\
  t_state (persisted true t node_restarted_without_job) = 1 /\
  t_state (persisted false t node_restarted_without_job) = 2.
Proof. vm_compute. repeat split; reflexivity. Qed.

(* non-vacuity: a history that goes through every stage on two differently placed nodes *)
Example run_reaches_finalized :
  let t0 := {| t_state := 0; t_votes := 0; t_finalized := false |} in
  let cin := [EndBlock; Vote false; EndBlock; Vote true; EndBlock; EndBlock] in
  let h1 := map (fun c => (c, node_with_job)) cin in
  let h2 := map (fun c => (c, node_restarted_without_job)) cin in
  same_inputs h1 h2 /\ writes_ok h1 = true /\ writes_ok h2 = true /\
  t_state (run false t0 h1) = 3 /\ run false t0 h1 = run false t0 h2 /\
  t_state (run true t0 h2) = 1.
Proof. vm_compute. repeat split; reflexivity. Qed.
