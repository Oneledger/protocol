(* DelegProofs.v — lemmas about theories/Deleg.v (C12).
   The scans are shown exact on the key strings; with exact scans [step] is characterised once
   ([step_begin], [step_effect]); every invariant is then a case analysis over [effect]. *)
From stdpp Require Import gmap list.
From Coq Require Import ZArith NArith Lia.
From OL Require Import theories.Deleg.
Local Open Scope Z_scope.

Lemma aget_insert (m : gmap addr Z) a v x : aget (<[a:=v]> m) x = if (x =? a)%N then v else aget m x.
Proof.
  unfold aget. destruct (N.eqb_spec x a) as [->|]; [by rewrite lookup_insert | by rewrite lookup_insert_ne].
Qed.

Lemma asum_insert_fresh (m : gmap addr Z) a v : m !! a = None -> asum (<[a:=v]> m) = v + asum m.
Proof. intros. apply map_fold_insert_L; [intros; lia | done]. Qed.

Lemma asum_insert (m : gmap addr Z) a v : asum (<[a:=v]> m) = asum m - aget m a + v.
Proof.
  unfold aget. destruct (m !! a) as [old|] eqn:E; simpl; [|rewrite asum_insert_fresh; [lia | done]].
  rewrite <- insert_delete_insert, asum_insert_fresh by apply lookup_delete.
  replace (asum m) with (old + asum (delete a m)); [lia|].
  rewrite <- (asum_insert_fresh _ a) by apply lookup_delete. by rewrite insert_delete.
Qed.

Lemma pget_insert (p : pmap) n a v n' a' :
  pget (<[(n, a) := v]> p) n' a' = if ((n' =? n) && (a' =? a))%N then v else pget p n' a'.
Proof.
  unfold pget, pmap in *. destruct (N.eqb_spec n' n) as [->|]; [destruct (N.eqb_spec a' a) as [->|]|]; simpl;
    [by rewrite lookup_insert | by rewrite lookup_insert_ne by congruence ..].
Qed.

Lemma pget_own_zero h p n a : pget (own_zero h p) n a = if (n =? h)%N then 0 else pget p n a.
Proof.
  unfold pget, own_zero, pmap in *. rewrite map_lookup_imap.
  destruct (p !! (n, a)); simpl; by destruct (n =? h)%N.
Qed.

Section Strings.
Local Open Scope N_scope.

Lemma strip_sep_snoc l c : strip_sep (l ++ [c]) = if (c =? SEP) then l else l ++ [c].
Proof.
  induction l as [|x l IH]; [simpl; by destruct (c =? SEP)|].
  change ((x :: l) ++ [c]) with (x :: (l ++ [c])).
  destruct (l ++ [c]) as [|z t] eqn:E; [by destruct l|].
  change (strip_sep (x :: z :: t)) with (x :: strip_sep (z :: t)). rewrite IH.
  by destruct (c =? SEP).
Qed.

Lemma lex_prefix i : forall k x y, lex_le (i ++ x) k = true -> lex_lt k (i ++ y) = true ->
  exists r, k = i ++ r /\ lex_le x r = true /\ lex_lt r y = true.
Proof.
  induction i as [|c i IH]; intros k x y H1 H2; [by exists k|].
  destruct k as [|c' k]; [done|]. unfold lex_le in H1. simpl in H1, H2.
  destruct (c' <? c); [done|]. destruct (N.eqb_spec c' c) as [->|]; [|done].
  destruct (IH k x y H1 H2) as (r & -> & Hr). by exists r.
Qed.

Lemma first_outside {A} (P : A -> Prop) d : forall e c c' s s',
  Forall P d -> Forall P e -> ~ P c -> ~ P c' -> e ++ c :: s = d ++ c' :: s' -> e = d.
Proof.
  induction d as [|x d IH]; intros [|y e] c c' s s' Hd He Hc Hc' [= ]; subst.
  - done.
  - by apply Forall_inv in He.
  - by apply Forall_inv in Hd.
  - f_equal. apply Forall_inv_tail in Hd, He. eauto.
Qed.

Definition isdigit (c : N) : Prop := 48 <= c <= 57.

Lemma dec_digits n : Forall isdigit (dec n).
Proof.
  unfold dec. apply Forall_rev. generalize (S (N.to_nat (N.log2 n))). intros f.
  induction f as [|f IH] in n |- *; cbn [dec_le]; constructor.
  - pose proof (N.mod_upper_bound n 10). set (r := n mod 10) in *. unfold isdigit. lia.
  - destruct (n / 10 =? 0); [constructor | apply IH].
Qed.

Fixpoint vle (l : bytes) : N := match l with [] => 0 | c :: l' => (c - 48) + 10 * vle l' end.

Lemma vle_dec_le f : forall n, n < 2 ^ N.of_nat f -> vle (dec_le f n) = n.
Proof.
  induction f as [|f IH]; intros n Hn; [simpl in *; lia|].
  cbn [dec_le vle]. rewrite (N.add_comm 48), N.add_sub, N.add_comm.
  replace (vle _) with (n / 10); [symmetry; apply N.div_mod'|].
  destruct (N.eqb_spec (n / 10) 0) as [->|_]; [done|]. symmetry. apply IH, N.div_lt_upper_bound; [done|].
  rewrite Nat2N.inj_succ, N.pow_succ_r' in Hn. lia.
Qed.

Lemma dec_inj n h : dec n = dec h -> n = h.
Proof.
  assert (forall m, vle (rev (dec m)) = m) as Hval; [|intros H; by rewrite <- (Hval n), H].
  intros m. unfold dec. rewrite rev_involutive. apply vle_dec_le.
  rewrite Nat2N.inj_succ, N2Nat.id.
  destruct (N.eq_dec m 0) as [->|Hm]; [done | apply N.log2_spec; lia].
Qed.

Lemma scan_exact (pfx : bytes) astr h n a :
  in_range (pfx ++ dec h ++ [SEP]) (pkey_str pfx astr n a) = true -> n = h.
Proof.
  unfold in_range, rangefix, pkey_str. rewrite (app_assoc pfx), strip_sep_snoc, N.eqb_refl.
  intros [H1 H2]%andb_true_iff. destruct (lex_prefix _ _ _ _ H1 H2) as ([|c r] & Hr & Hc & _); [done|].
  rewrite <- app_assoc in Hr. apply app_inv_head in Hr. unfold lex_le in Hc. simpl in Hc.
  destruct (N.ltb_spec c SEP); [done|].
  (* the key reads dec h ++ c :: r behind pfx, with "_" <= c: like "_", c is no digit, so the digits
     in front of it are all of dec n *)
  apply dec_inj, (first_outside isdigit _ _ SEP c (astr a) r); auto using dec_digits;
    unfold isdigit, SEP in *; lia.
Qed.

End Strings.

Lemma collides_exact scan h (p : pmap) :
  (forall n a, scan h n a = true -> n = h) -> collides scan h p = false.
Proof.
  intros Hex. unfold collides. apply negb_false_iff, bool_decide_eq_true. intros [n a] v _. simpl.
  destruct (scan h n a) eqn:E; [|done]. apply Hex in E. subst. by rewrite N.eqb_refl.
Qed.

Lemma mature_exact scan h b p :
  (forall n a, scan h n a = true -> n = h) ->
  mature scan h b p = (fun a => b a + pget p h a, own_zero h p).
Proof.
  intros Hex. unfold mature.
  replace (map_fold (collide_step scan h) (b, p) p) with (b, p); [done|]. symmetry.
  apply (map_fold_ind (fun r _ => r = (b, p))); [done|]. intros [n a] v m r _ ->. unfold collide_step.
  destruct (scan h n a) eqn:E; [|done]. by rewrite (Hex _ _ E), N.eqb_refl.
Qed.

Definition begin_block (s : st) (accr : list (addr * Z)) : st :=
  let h := (height s + 1)%N in
  let b1 a := bal s a + pget (pend s) h a in
  let b2 a := b1 a + pget (rpend s) h a in
  {| height := h ; matk := matk s ; bal := b2 ; pool := pool s ; active := active s ;
     pend := own_zero h (pend s) ; rew := add_accr (rew s) accr ; rpend := own_zero h (rpend s) ;
     donated := donated s ; und := und s ;
     paid := (fun n a => if (n =? h)%N then b1 a - bal s a else paid s n a) ;
     rwd := rwd s ;
     rpaid := (fun n a => if (n =? h)%N then b2 a - b1 a else rpaid s n a) ;
     accrued := add_accr (accrued s) accr ; taken := taken s ; collided := collided s |}.

Lemma step_begin astr s accr : (step astr s (Begin accr)).1 = begin_block s accr.
Proof.
  unfold step. cbn [validate handle].
  rewrite !mature_exact, !collides_exact by (intros ? ?; apply scan_exact).
  simpl. by rewrite orb_false_r.
Qed.

(* the balances [b] after a transaction are left open: nothing below depends on them *)
Inductive effect (s : st) : op -> st -> Prop :=
| eff_begin accr : effect s (Begin accr) (begin_block s accr)
| eff_delegate a amt fee b : 0 <= amt ->
    effect s (Delegate a amt fee)
      (with_tx s b (pool s + amt) (<[a := aget (active s) a + amt]> (active s)) (pend s) (rew s)
               (rpend s) (donated s) (und s) (rwd s) (taken s))
| eff_undelegate a amt fee b : 0 <= amt <= aget (active s) a ->
    let mh := (height s + matk s)%N in
    effect s (Undelegate a amt fee)
      (with_tx s b (pool s - amt) (<[a := aget (active s) a - amt]> (active s))
               (<[(mh, a) := pget (pend s) mh a + amt]> (pend s)) (rew s) (rpend s)
               (donated s) (fupd2 (und s) mh a (und s mh a + amt)) (rwd s) (taken s))
| eff_withdraw a amt fee b : 0 <= amt <= rew s a ->
    let mh := (height s + matk s)%N in
    effect s (WithdrawRw a amt fee)
      (with_tx s b (pool s) (active s) (pend s) (fupd (rew s) a (rew s a - amt))
               (<[(mh, a) := pget (rpend s) mh a + amt]> (rpend s))
               (donated s) (und s) (fupd2 (rwd s) mh a (rwd s mh a + amt))
               (fupd (taken s) a (taken s a + amt)))
| eff_reinvest a amt fee b : 0 <= amt <= rew s a ->
    effect s (Reinvest a amt fee)
      (with_tx s b (pool s + amt) (<[a := aget (active s) a + amt]> (active s))
               (pend s) (fupd (rew s) a (rew s a - amt)) (rpend s)
               (donated s) (und s) (rwd s) (fupd (taken s) a (taken s a + amt)))
| eff_donate a amt fee b : 0 <= amt ->
    effect s (Donate a amt fee)
      (with_tx s b (pool s + amt) (active s) (pend s) (rew s) (rpend s) (donated s + amt)
               (und s) (rwd s) (taken s)).

Lemma guarded_tx (P : st -> Prop) (g : bool) s0 s b pl ac pe rw rp dn un rd tk a fee :
  (g = false -> forall b', P (with_tx s b' pl ac pe rw rp dn un rd tk)) ->
  let r := (if g then (s0, false) else charge s0 (with_tx s b pl ac pe rw rp dn un rd tk) a fee).1 in
  r = s0 \/ P r.
Proof.
  intros HP. unfold charge. destruct g; [by left|]. case (_ <? 0); [by left|right]. by apply HP.
Qed.

Lemma step_effect astr s o : (step astr s o).1 = s \/ effect s o (step astr s o).1.
Proof.
  destruct o as [accr|a amt fee|a amt fee|a amt fee|a amt fee|a amt fee];
    [right; rewrite step_begin; constructor|..]; unfold step; cbn [validate handle].
  5: destruct (0 <=? amt); [|by left].
  (* the five handlers have one shape: a guard, then the fee charged on the handler's state *)
  all: apply (guarded_tx (effect s _)); intros G b.
  all: repeat (apply orb_false_elim in G as [G ?%Z.ltb_ge]); apply Z.ltb_ge in G; constructor; lia.
Qed.

Lemma run_app astr s a b : run astr s (a ++ b) = run astr (run astr s a) b.
Proof. unfold run. apply fold_left_app. Qed.

Lemma run_ind_if astr (Q : op -> Prop) (P : st -> Prop) :
  (forall s o, Q o -> P s -> P (step astr s o).1) ->
  forall ops s, Forall Q ops -> P s -> P (run astr s ops).
Proof.
  intros Hstep ops. induction ops as [|o ops IH]; intros s HQ Hs; [done|].
  inversion_clear HQ. apply IH; auto.
Qed.

Lemma run_ind astr (P : st -> Prop) :
  (forall s o, P s -> P (step astr s o).1) -> forall ops s, P s -> P (run astr s ops).
Proof. intros Hstep ops s. apply (run_ind_if astr (fun _ => True)); [auto | by apply Forall_true]. Qed.

Definition gap (s : st) : Z := pool s - asum (active s) - donated s.

Definition is_donate (o : op) : bool := match o with Donate _ _ _ => true | _ => false end.

(* direct transfers to the pool are never negative (runSendPool checks Amount.IsValid) *)
Lemma step_pool astr s o :
  gap (step astr s o).1 = gap s /\ donated s <= donated (step astr s o).1 /\
  (is_donate o = false -> donated (step astr s o).1 = donated s).
Proof.
  destruct (step_effect astr s o) as [-> | []]; unfold gap; cbn; rewrite ?asum_insert;
    repeat split; (done || lia).
Qed.

Lemma run_pool astr s0 ops :
  gap (run astr s0 ops) = gap s0 /\ donated s0 <= donated (run astr s0 ops).
Proof.
  apply (run_ind astr (fun s => gap s = gap s0 /\ donated s0 <= donated s)); [|done].
  intros s o [? ?]. destruct (step_pool astr s o) as (? & ? & _). lia.
Qed.

Lemma run_donated_none astr s0 ops :
  existsb is_donate ops = false -> donated (run astr s0 ops) = donated s0.
Proof.
  intros H. apply (run_ind_if astr (fun o => is_donate o = false) (fun s => donated s = donated s0)); [| |done].
  - intros s o Ho <-. by apply step_pool.
  - induction ops; constructor; apply orb_false_elim in H; tauto.
Qed.

Lemma step_frame astr s o :
  matk (step astr s o).1 = matk s /\ collided (step astr s o).1 = collided s.
Proof. by destruct (step_effect astr s o) as [-> | []]. Qed.

Lemma no_scan_collides astr ops s : collided (run astr s ops) = collided s.
Proof.
  apply (run_ind astr (fun s' => collided s' = collided s)); [|done]. intros s' o <-. apply step_frame.
Qed.

(* [pe] the store of pending amounts, [p0] its genesis content, [un n a] what transactions have added
   for maturity height [n], [pa n a] what block [n] credited to [a] *)
Definition ledger (p0 : pmap) (h : N) (pe : pmap) (un pa : N -> addr -> Z) : Prop :=
  forall n a, 0 <= un n a /\
    ((1 <= n <= h)%N -> pa n a = un n a + pget p0 n a) /\
    ((h < n)%N -> pa n a = 0 /\ pget pe n a = un n a + pget p0 n a).

(* [b a + _ - b a] is left unsimplified: it is what [begin_block] has, with [bal s] for [b] in [paid]
   and its [b1] in [rpaid] *)
Lemma ledger_begin p0 h pe un pa (b : addr -> Z) :
  ledger p0 h pe un pa ->
  ledger p0 (h + 1) (own_zero (h + 1) pe) un
         (fun n a => if (n =? h + 1)%N then b a + pget pe (h + 1)%N a - b a else pa n a).
Proof.
  intros L n a. destruct (L n a) as (L0 & L1 & L2). rewrite pget_own_zero.
  destruct (N.eqb_spec n (h + 1)) as [->|]; (split; [done|split; intros]).
  - destruct L2 as [_ ->]; lia.
  - lia.
  - apply L1. lia.
  - apply L2. lia.
Qed.

Lemma ledger_add p0 h pe un pa k a amt :
  ledger p0 h pe un pa -> (1 <= k)%N -> 0 <= amt ->
  ledger p0 h (<[(h + k, a)%N := pget pe (h + k) a + amt]> pe)
         (fupd2 un (h + k) a (un (h + k)%N a + amt)) pa.
Proof.
  intros L Hk Hamt n a'. rewrite pget_insert. unfold fupd2.
  destruct ((n =? h + k) && (a' =? a))%N eqn:E; [|apply L].
  apply andb_true_iff in E as [->%N.eqb_eq ->%N.eqb_eq]. destruct (L (h + k)%N a) as (L0 & _ & L2).
  split; [lia|split; intros]; [lia|]. destruct L2 as [-> ->]; [lia|]. split; [done | lia].
Qed.

Lemma ledger_paid_nonneg p0 h pe un pa :
  ledger p0 h pe un pa -> (forall n a, 0 <= pget p0 n a) -> forall n a, (1 <= n)%N -> 0 <= pa n a.
Proof.
  intros L H0 n a Hn. destruct (L n a) as (L0 & L1 & L2). specialize (H0 n a).
  destruct (N.le_gt_cases n h); [rewrite L1 by done; lia | by destruct L2 as [-> _]].
Qed.

Definition ledgers (p0 rp0 : pmap) (s : st) : Prop :=
  ledger p0 (height s) (pend s) (und s) (paid s) /\ ledger rp0 (height s) (rpend s) (rwd s) (rpaid s).

Lemma step_ledgers astr p0 rp0 s o :
  (1 <= matk s)%N -> ledgers p0 rp0 s -> ledgers p0 rp0 (step astr s o).1.
Proof.
  intros Hk [Lu Lr]. destruct (step_effect astr s o) as [-> | []]; split; cbn; trivial.
  - by apply ledger_begin.
  - by apply ledger_begin.
  - apply ledger_add; [trivial..|lia].
  - apply ledger_add; [trivial..|lia].
Qed.

Lemma genesis_ledgers astr k b pl ac pe rw rp ops :
  (1 <= k)%N -> ledgers pe rp (run astr (genesis k b pl ac pe rw rp) ops).
Proof.
  intros Hk.
  apply (run_ind astr (fun s => matk s = k /\ ledgers pe rp s)); [|by repeat split; cbn; lia].
  intros s o [<- L]. split; [apply step_frame | by apply step_ledgers].
Qed.

Lemma add_accr_diff l : forall f g a, add_accr f l a - add_accr g l a = f a - g a.
Proof.
  induction l as [|[a0 v] l IH]; intros f g a; [reflexivity|].
  unfold add_accr in *. simpl. rewrite IH. unfold fupd. destruct (N.eqb_spec a a0) as [->|]; lia.
Qed.

Definition accr_nonneg (o : op) : bool :=
  match o with Begin accr => forallb (fun x => 0 <=? x.2) accr | _ => true end.

Lemma add_accr_nonneg l : forall f, (forall a, 0 <= f a) -> forallb (fun x => 0 <=? x.2) l = true ->
  forall a, 0 <= add_accr f l a.
Proof.
  induction l as [|[a0 v] l IH]; intros f Hf Hl a; [apply Hf|].
  simpl in Hl. apply andb_true_iff in Hl as [Hv%Z.leb_le Hl].
  unfold add_accr in *. simpl. apply IH; [|done].
  intros x. unfold fupd. destruct (x =? a0)%N; [|apply Hf]. specialize (Hf a0). lia.
Qed.

Definition rbook (s : st) (a : addr) : Z := rew s a - accrued s a + taken s a.

Lemma step_rewards astr s o x :
  rbook (step astr s o).1 x = rbook s x /\
  ((forall y, 0 <= rew s y) -> accr_nonneg o = true -> 0 <= rew (step astr s o).1 x).
Proof.
  destruct (step_effect astr s o) as [-> | []]; [by auto|unfold rbook; cbn; unfold fupd..].
  - split; [pose proof (add_accr_diff accr (rew s) (accrued s) x); lia | intros; by apply add_accr_nonneg].
  - by auto.
  - by auto.
  - split; [|intros Hr _; pose proof (Hr x)]; destruct (N.eqb_spec x a) as [->|]; lia.
  - split; [|intros Hr _; pose proof (Hr x)]; destruct (N.eqb_spec x a) as [->|]; lia.
  - by auto.
Qed.

Lemma run_rewards astr s0 ops :
  (forall a, rbook (run astr s0 ops) a = rbook s0 a) /\
  ((forall x, 0 <= rew s0 x) -> forallb accr_nonneg ops = true -> forall x, 0 <= rew (run astr s0 ops) x).
Proof.
  split.
  - apply (run_ind astr (fun s => forall a, rbook s a = rbook s0 a)); [|done].
    intros s o H a. rewrite <- H. apply step_rewards.
  - intros H0 Ha%Is_true_true%forallb_True.
    apply (run_ind_if astr accr_nonneg (fun s => forall x, 0 <= rew s x)); [|done..].
    intros s o Ho%Is_true_true H x. by apply step_rewards.
Qed.

Definition active_nn (s : st) : Prop := forall x, 0 <= aget (active s) x.

Lemma step_active_nn astr s o : active_nn s -> active_nn (step astr s o).1.
Proof.
  intros Ha. destruct (step_effect astr s o) as [-> | []]; try done; intros x; cbn; rewrite aget_insert;
    pose proof (Ha a); pose proof (Ha x); destruct (x =? a)%N; lia.
Qed.

Lemma active_nonneg astr ops : forall s, active_nn s -> active_nn (run astr s ops).
Proof. apply run_ind, step_active_nn. Qed.
