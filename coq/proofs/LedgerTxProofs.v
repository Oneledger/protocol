(* LedgerTxProofs.v — per-kind lemmas about the effect functions of theories/LedgerTx.v (C02, C03).
   The operation list of every kind is [honest]: it creates nothing, adds no negative amount (so no record becomes
   negative), and takes from nobody but the owners listed (the signer field of the payload, the fee payer).  Honest lists
   are closed under ++ and built from four shapes: [honest_move], [honest_burn_mint], [honest_burn] and
   [honest_mint_claim] (a delegation claim is outside the chain total).  The proof for a kind opens the guard of its
   effect function (G), from which lia reads the sign of the amount, and names the shape. *)
From stdpp Require Import gmap list.
From Coq Require Import ZArith NArith Lia ZifyBool ZifyNat ZifyN String.
From OL Require Import theories.Ledger theories.LedgerTx proofs.LedgerProofs.
Local Open Scope Z_scope.

Lemma E18_scale v : 0 <= v -> 0 <= v * E18.
Proof. unfold E18. lia. Qed.

Lemma wrap64_fits z : fits64 z = true -> wrap64 z = z.
Proof. unfold fits64, wrap64. intros H. rewrite Z.mod_small; lia. Qed.

Definition no_creation (ops : list lop) : Prop := forall c, minted c ops - burned c ops <= 0.
Definition credits_ok (ops : list lop) : Prop := forallb credit_nonneg ops = true.
Definition takes_only_from (ops : list lop) (who : list N) : Prop := forall a, In a (debited ops) -> In a who.

Definition honest (ops : list lop) (who : list N) : Prop :=
  no_creation ops /\ credits_ok ops /\ takes_only_from ops who.

Lemma honest_creates_nothing ops who : honest ops who -> no_creation ops /\ credits_ok ops.
Proof. intros (A & B & _). exact (conj A B). Qed.

Lemma honest_takes_only_from ops who : honest ops who -> takes_only_from ops who.
Proof. intros (_ & _ & C). exact C. Qed.

Lemma no_creation_total c l ops : no_creation ops -> total c (run_tx l ops) <= total c l.
Proof.
  intros H. pose proof (run_tx_total_bound c l ops). unfold surplus in *. specialize (H c). lia.
Qed.

Lemma takes_only_holdings a c l ops who : takes_only_from ops who -> ~ In a who -> holdings a c l <= holdings a c (run_tx l ops).
Proof. intros H N. apply run_tx_holdings. intros I. apply N, H, I. Qed.

Lemma minted_app c a b : minted c (a ++ b) = minted c a + minted c b.
Proof. induction a; simpl; lia. Qed.

Lemma burned_app c a b : burned c (a ++ b) = burned c a + burned c b.
Proof. induction a; simpl; lia. Qed.

Lemma honest_nil who : honest [] who.
Proof. split; [intros c; simpl; lia|split; [reflexivity|intros a []]]. Qed.

Lemma honest_app a b who : honest a who -> honest b who -> honest (a ++ b) who.
Proof.
  intros (A1 & A2 & A3) (B1 & B2 & B3). split; [|split].
  - intros c. rewrite minted_app, burned_app. specialize (A1 c). specialize (B1 c). lia.
  - unfold credits_ok. rewrite forallb_app, A2, B2. reflexivity.
  - intros x. unfold debited. rewrite flat_map_app, in_app_iff. intros [I|I]; [apply A3|apply B3]; exact I.
Qed.

Lemma honest_cons o ops who : honest [o] who -> honest ops who -> honest (o :: ops) who.
Proof. exact (honest_app [o] ops who). Qed.

Definition source_in (who : list N) (o : lop) : Prop :=
  match o with Move s _ _ | Burn s _ => In (k_owner s) who | Mint _ _ => True end.

Lemma takes_only_from_sources ops who : credits_ok ops -> Forall (source_in who) ops -> takes_only_from ops who.
Proof.
  intros C F a. induction F as [|o ops S _ IH]; [intros []|].
  apply andb_true_iff in C as [C1 C2]. intros [I|I]%in_app_or; [|exact (IH C2 I)].
  (* adding a negative amount takes from the destination: C1 excludes that *)
  destruct o as [s d v|s v|d v]; simpl in C1, S, I.
  - destruct (0 <? v); [destruct I as [<-|[]]; exact S|]. destruct (v <? 0) eqn:E; [lia|destruct I].
  - destruct (0 <? v); [destruct I as [<-|[]]; exact S|destruct I].
  - destruct (v <? 0) eqn:E; [lia|destruct I].
Qed.

Lemma honest_intro ops who : no_creation ops -> credits_ok ops -> Forall (source_in who) ops -> honest ops who.
Proof. intros A B C. exact (conj A (conj B (takes_only_from_sources ops who B C))). Qed.

Lemma tw_nonneg c k : 0 <= tw c k.
Proof. unfold tw. destruct (_ && _); lia. Qed.

Lemma tw_bal c o cur : tw c (bal o cur) = if (cur =? c)%N then 1 else 0.
Proof. unfold tw, bal. simpl. rewrite andb_true_r. reflexivity. Qed.

Lemma honest_move s d v who : conservative (Move s d v) = true -> 0 <= v -> In (k_owner s) who -> honest [Move s d v] who.
Proof.
  intros C V S. apply honest_intro; [intros c|unfold credits_ok|repeat constructor; assumption]; simpl.
  - rewrite (tw_conservative c s d v C). lia.
  - lia.
Qed.

Lemma honest_burn_mint s d v w who : conservative (Move s d w) = true -> 0 <= w -> w <= v -> In (k_owner s) who ->
  honest [Burn s v; Mint d w] who.
Proof.
  intros C W V S. apply honest_intro; [intros c|unfold credits_ok|repeat constructor; assumption]; simpl.
  - (* s and d are counted alike (C), so what is destroyed at s covers what is created at d *)
    rewrite (tw_conservative c s d w C). pose proof (tw_nonneg c d). nia.
  - lia.
Qed.

Lemma honest_burn s v who : 0 <= v -> In (k_owner s) who -> honest [Burn s v] who.
Proof.
  intros V S. apply honest_intro; [intros c|reflexivity|repeat constructor; assumption]; simpl.
  pose proof (tw_nonneg c s). nia.
Qed.

Lemma honest_mint_claim d v who : k_bucket d = B_DELEGACT -> 0 <= v -> honest [Mint d v] who.
Proof.
  intros B V. apply honest_intro; [intros c|unfold credits_ok|repeat constructor]; simpl.
  - unfold tw. rewrite B, andb_false_r. lia.
  - lia.
Qed.

Lemma conservative_bal a b c v : conservative (Move (bal a c) (bal b c) v) = true.
Proof. cbn. rewrite N.eqb_refl. reflexivity. Qed.

Lemma if_some {A} (b : bool) (x y : A) : (if b then Some x else None) = Some y -> b = true /\ x = y.
Proof. destruct b; [intros [= ->]; auto|discriminate]. Qed.

Section Kinds.
Variables (payer fp : N) (fee : Z).
Hypothesis fee_nonneg : 0 <= fee.

Lemma with_fee ops who : In payer who -> honest ops who -> honest (ops ++ fee_ops payer fp fee) who.
Proof. intros I H. apply honest_app; [exact H|]. apply honest_move; [reflexivity|exact fee_nonneg|exact I]. Qed.

Lemma move_with_fee s d v : conservative (Move s d v) = true -> 0 <= v ->
  honest ([Move s d v] ++ fee_ops payer fp fee) [k_owner s; payer].
Proof. intros C V. apply with_fee; [auto with datatypes|]. apply honest_move; [exact C|exact V|now left]. Qed.

Lemma burn_mint_with_fee s d v w : conservative (Move s d w) = true -> 0 <= w -> w <= v ->
  honest ([Burn s v; Mint d w] ++ fee_ops payer fp fee) [k_owner s; payer].
Proof. intros C W V. apply with_fee; [auto with datatypes|]. apply honest_burn_mint; [exact C|exact W|exact V|now left]. Qed.

Lemma send_honest known cur from to v ops : effect_send known cur from to v = Some ops ->
  honest (ops ++ fee_ops payer fp fee) [from; payer].
Proof.
  unfold effect_send, amount_valid. intros [G <-]%if_some. apply move_with_fee; [apply conservative_bal|lia].
Qed.

Lemma sendpool_honest known cur from pool v ops : effect_sendpool known cur from pool v = Some ops ->
  honest (ops ++ fee_ops payer fp fee) [from; payer].
Proof.
  unfold effect_sendpool, amount_valid. intros [G <-]%if_some. apply move_with_fee; [apply conservative_bal|lia].
Qed.

Lemma stake_honest known cur staker val v ops : effect_stake known cur staker val v = Some ops ->
  honest (ops ++ fee_ops payer fp fee) [staker; payer].
Proof.
  intros [[G F]%andb_true_iff <-]%if_some.
  (* the handler's guards v >= 0 and v fits int64 (48c76fc): then wrap64 v = v and debit = credit *)
  rewrite (wrap64_fits v F).
  apply burn_mint_with_fee; [reflexivity|apply E18_scale; lia|reflexivity].
Qed.

Lemma unstake_honest known cur staker val v h ops : effect_unstake known cur staker val v h = Some ops ->
  honest (ops ++ fee_ops payer fp fee) [staker; payer].
Proof.
  intros [G <-]%if_some. apply move_with_fee; [reflexivity|apply E18_scale; lia].
Qed.

Lemma withdraw_honest known cur staker v ops : effect_withdraw known cur staker v = Some ops ->
  honest (ops ++ fee_ops payer fp fee) [staker; payer].
Proof.
  intros [[G F]%andb_true_iff <-]%if_some. rewrite (wrap64_fits v F).
  apply burn_mint_with_fee; [reflexivity|apply E18_scale; lia|reflexivity].
Qed.

Lemma delegate_honest known cur u pool v ops : effect_delegate known cur u pool v = Some ops ->
  honest (ops ++ fee_ops payer fp fee) [u; payer].
Proof.
  unfold effect_delegate, amount_valid. intros [G <-]%if_some. apply with_fee; [auto with datatypes|].
  apply honest_cons; [apply honest_move; [reflexivity|lia|now left]|apply honest_mint_claim; [reflexivity|lia]].
Qed.

(* guard since 1d1d85c.  The pool (not externally owned) is the source of the Move: hence [pool] in the list *)
Lemma undelegate_honest known cur u pool v h ops : effect_undelegate known cur u pool v h = Some ops ->
  honest (ops ++ fee_ops payer fp fee) [u; pool; payer].
Proof.
  unfold effect_undelegate, amount_valid. intros [G <-]%if_some. apply with_fee; [auto with datatypes|].
  apply honest_cons; [apply honest_burn; [lia|now left]|apply honest_move; [reflexivity|lia|now right; left]].
Qed.

Lemma rewards_withdraw_honest known cur u v h ops : effect_rewards_withdraw known cur u v h = Some ops ->
  honest (ops ++ fee_ops payer fp fee) [u; payer].
Proof.
  unfold effect_rewards_withdraw, amount_valid. intros [G <-]%if_some. apply move_with_fee; [reflexivity|lia].
Qed.

Lemma reinvest_honest known cur u pool v ops : effect_reinvest known cur u pool v = Some ops ->
  honest (ops ++ fee_ops payer fp fee) [u; payer].
Proof.
  unfold effect_reinvest, amount_valid. intros [G <-]%if_some. apply with_fee; [auto with datatypes|].
  apply honest_cons; [apply honest_move; [reflexivity|lia|now left]|apply honest_mint_claim; [reflexivity|lia]].
Qed.

Lemma withdraw_reward_honest known cur signer rpool v ops : effect_withdraw_reward known cur signer rpool v = Some ops ->
  honest (ops ++ fee_ops payer fp fee) [rpool; payer].
Proof.
  intros [[G F]%andb_true_iff <-]%if_some.
  (* guards: v >= 0 (45cfd0d) and v fits int64 (ed95e98): the narrowed amount is v itself *)
  rewrite (wrap64_fits v F).
  apply burn_mint_with_fee; [reflexivity|apply E18_scale; lia|reflexivity].
Qed.

(* the sign of v: the handler checks initial-funding option <= v; 0 <= init is a hypothesis on the option value *)
Lemma proposal_create_honest known cur p prop v init goal ops : effect_proposal_create known cur p prop v init goal = Some ops ->
  0 <= init -> honest (ops ++ fee_ops payer fp fee) [p; payer].
Proof.
  unfold effect_proposal_create, is_olt. intros [G <-]%if_some I. assert (cur = CUR_OLT) as -> by lia.
  apply burn_mint_with_fee; [reflexivity|lia|reflexivity].
Qed.

(* guards: OLT (Validate), v > 0 (handler, 782c385) *)
Lemma proposal_fund_honest known cur f prop v ops : effect_proposal_fund known cur f prop v = Some ops ->
  honest (ops ++ fee_ops payer fp fee) [f; payer].
Proof.
  unfold effect_proposal_fund, is_olt. intros [G <-]%if_some. assert (cur = CUR_OLT) as -> by lia.
  apply burn_mint_with_fee; [reflexivity|lia|reflexivity].
Qed.

(* guards: OLT (Validate), v > 0 (handler, 19a3caa): only the funder's escrow is taken from *)
Lemma proposal_withdraw_honest known cur f b prop v ops : effect_proposal_withdraw known cur f b prop v = Some ops ->
  honest (ops ++ fee_ops payer fp fee) [f; payer].
Proof.
  unfold effect_proposal_withdraw, is_olt. intros [G <-]%if_some. assert (cur = CUR_OLT) as -> by lia.
  apply burn_mint_with_fee; [reflexivity|lia|reflexivity].
Qed.

Lemma domain_create_honest known cur o v base ops : effect_domain_create known cur o fp v base = Some ops ->
  0 <= base -> honest (ops ++ fee_ops payer fp fee) [o; payer].
Proof.
  intros [G <-]%if_some I. apply move_with_fee; [reflexivity|lia].
Qed.

Lemma domain_renew_honest known cur o v pb ops : effect_domain_renew known cur o fp v pb = Some ops ->
  0 <= pb -> honest (ops ++ fee_ops payer fp fee) [o; payer].
Proof. exact (domain_create_honest known cur o v pb ops). Qed.

(* 0 <= sale: DOMAIN_SELL validates the asking price *)
Lemma domain_purchase_honest known cur buyer offer on_sale sale seller base ops :
  effect_domain_purchase known cur buyer fp offer on_sale sale seller base = Some ops ->
  0 <= sale -> 0 <= base -> honest (ops ++ fee_ops payer fp fee) [buyer; payer].
Proof.
  unfold effect_domain_purchase. destruct (known && is_olt cur), on_sale; try discriminate;
    intros [G <-]%if_some I J; (apply with_fee; [auto with datatypes|]).
  - apply honest_cons; (apply honest_move; [reflexivity|lia|now left]).
  - apply honest_move; [reflexivity|lia|now left].
Qed.

Lemma domain_send_honest known cur from benef v ops : effect_domain_send known cur from benef v = Some ops ->
  honest (ops ++ fee_ops payer fp fee) [from; payer].
Proof. exact (send_honest known cur from benef v ops). Qed.

Lemma bid_create_honest known cur bidder conv v hc c ops : effect_bid_create known cur bidder conv v hc c = Some ops ->
  honest (ops ++ fee_ops payer fp fee) [bidder; payer].
Proof.
  unfold effect_bid_create, amount_valid. intros [G <-]%if_some. apply move_with_fee; [reflexivity|lia].
Qed.

Lemma escrow_move_honest (l : gmap key Z) (bidder conv to : N) : nonneg l ->
  honest ([Move (esc bidder conv) (bal to CUR_OLT) (lget l (esc bidder conv))] ++ fee_ops payer fp fee) [bidder; payer].
Proof. intros NN. apply move_with_fee; [reflexivity|apply NN]. Qed.

Lemma bid_bidder_accept_honest bidder owner c ops : effect_bid_bidder_accept bidder owner c = Some ops ->
  honest (ops ++ fee_ops payer fp fee) [bidder; payer].
Proof.
  intros [G <-]%if_some. apply move_with_fee; [reflexivity|lia].
Qed.

Lemma eth_redeem_burn_honest owner cur amount ops : effect_eth_redeem_burn owner cur amount = Some ops ->
  honest (ops ++ fee_ops payer fp fee) [owner; payer].
Proof. intros [G <-]%if_some. apply with_fee; [auto with datatypes|]. apply honest_burn; [lia|now left]. Qed.

End Kinds.

Lemma unlock_neutral (a c : N) (l : gmap key Z) (bidder conv : N) : holdings a c (run_tx l (unlock_ops l bidder conv)) = holdings a c l.
Proof. apply run_tx_own_moves. cbn. rewrite N.eqb_refl. reflexivity. Qed.

(* the fee step is part of [effect_olvm] *)
Lemma olvm_honest sender target fp value reverted fee ops : effect_olvm sender target fp value reverted fee = Some ops ->
  honest ops [sender].
Proof.
  intros [G <-]%if_some. apply honest_app; [destruct reverted; [apply honest_nil|]|]; (apply honest_move; [reflexivity|lia|now left]).
Qed.

Lemma penalty_amount_nonneg total pct dec : 0 <= total -> 0 <= pct -> 0 < dec -> 0 <= penalty_amount total pct dec.
Proof. intros. unfold penalty_amount. apply Z.div_pos; nia. Qed.

Lemma penalty_honest (l : gmap key Z) (stake val bounty : N) (pct dec bpct bdec : Z) :
  0 <= val_total l val -> 0 <= pct -> 0 < dec -> 0 <= bpct <= bdec -> 0 < bdec ->
  honest (penalty_ops l stake val bounty pct dec bpct bdec) [stake].
Proof.
  intros T P D B BD. unfold penalty_ops. destruct (_ <? 0); [apply honest_nil|].
  pose proof (E18_scale _ (penalty_amount_nonneg _ _ _ T P D)).
  (* the bounty is the floor of a fraction bpct / bdec <= 1 of what the stake record loses *)
  apply honest_burn_mint; [reflexivity|apply Z.div_pos; nia|apply Z.div_le_upper_bound; nia|now left].
Qed.

Lemma tx_ops_none payer fp fee : tx_ops None payer fp fee = None.
Proof. reflexivity. Qed.

Lemma maturity_neutral (a c : N) (l : gmap key Z) b h target :
  holding_bucket b = true ->
  (forall k, k_owner (target k) = k_owner k /\ k_cur (target k) = k_cur k /\ holding_bucket (k_bucket (target k)) = true) ->
  holdings a c (run_tx l (maturity_ops l b h target)) = holdings a c l.
Proof.
  intros HB HT. apply run_tx_own_moves, forallb_forall. intros o I. unfold maturity_ops in I.
  apply in_map_iff in I as [kv [<- I]]. apply elem_of_list_In, elem_of_list_filter in I as [M _].
  unfold matures in M. apply Is_true_true in M. apply andb_true_iff in M as [M1 _]. apply N.eqb_eq in M1.
  destruct (HT kv.1) as [T1 [T2 T3]]. simpl. rewrite T1, T2, T3, M1, HB, !N.eqb_refl. reflexivity.
Qed.

Lemma own_move_conservative o : own_move o = true ->
  (match o with Move s d _ => negb (k_bucket s =? B_DELEGACT)%N && negb (k_bucket d =? B_DELEGACT)%N | _ => true end) = true ->
  forall c, op_mint c o - op_burn c o = 0.
Proof.
  destruct o as [s d v|s v|d v]; try discriminate. intros H G c.
  rewrite move_mints_nothing; [reflexivity|]. simpl in *. lia.
Qed.

Lemma accrual_minted c accr : minted c (accrual_ops accr) - burned c (accrual_ops accr) = if (c =? CUR_OLT)%N then accrued accr else 0.
Proof.
  induction accr as [|x accr IH]; simpl.
  - destruct (c =? CUR_OLT)%N; reflexivity.
  - unfold tw, k_cur, k_bucket, mk, CUR_OLT in *. destruct c; simpl in *; lia.
Qed.

Lemma forallb_flat_map {A B} (p : B -> bool) (f : A -> list B) l : (forall x, forallb p (f x) = true) -> forallb p (flat_map f l) = true.
Proof. intros H. induction l as [|x l IH]; simpl; [reflexivity|]. rewrite forallb_app, H, IH. reflexivity. Qed.

Lemma fee_dist_conservative fp total minfee tp vals : forallb conservative (fee_dist_ops fp total minfee tp vals) = true.
Proof.
  unfold fee_dist_ops. destruct (minfee <? total); [|reflexivity].
  apply forallb_flat_map. intros x. destruct (_ && _); reflexivity.
Qed.

Lemma fee_dist_credits fp total minfee tp vals : 0 <= total -> forallb credit_nonneg (fee_dist_ops fp total minfee tp vals) = true.
Proof.
  intros T. unfold fee_dist_ops. destruct (minfee <? total); [|reflexivity].
  apply forallb_flat_map. intros x. destruct (_ && _) eqn:E; [|reflexivity].
  simpl. rewrite andb_true_r. apply Z.leb_le, Z.div_pos; nia.
Qed.

Lemma conservative_no_mint c ops : forallb conservative ops = true ->
  (forall o, In o ops -> match o with Move _ _ _ => True | _ => False end) -> minted c ops - burned c ops = 0.
Proof.
  induction ops as [|o ops IH]; simpl; [reflexivity|]. intros [H1 H2]%andb_true_iff A.
  specialize (IH H2 (fun o I => A o (or_intror I))). pose proof (A o (or_introl eq_refl)) as K.
  destruct o as [s d v|s v|d v]; try contradiction. rewrite move_mints_nothing by exact H1. simpl. lia.
Qed.

Lemma olvm_create_conserves (l : gmap key Z) sender target fp value fee ops c : sender <> target ->
  effect_olvm sender target fp value false fee = Some ops -> forall l', apply_ops l ops = Some l' ->
  total c l' = total c l /\ lget l' (bal target CUR_OLT) = lget l (bal target CUR_OLT) + value.
Proof.
  intros NE [_ <-]%if_some l' A. split.
  - rewrite (total_exact c _ _ _ A), <- Z.add_sub_assoc, conservative_no_mint; [lia|reflexivity|].
    intros o [<-|[<-|[]]]; exact I.
  - apply apply_ops_move, apply_ops_move, (inj Some) in A. subst l'.
    rewrite 2 lget_ladd_ne, lget_ladd_eq, lget_ladd_ne; [reflexivity|..]; try discriminate; intros [= E]; exact (NE E).
Qed.
