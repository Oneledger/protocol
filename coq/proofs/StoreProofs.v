(* Store.v refines StoreSpec.v.  Below the gas limit the counter is invisible ([step_erase]), so the
   rest is about gas-free states, where the data operations are [read] and [put] ([step_free]) and
   the abstraction [abs] commutes with every step ([step_abs]). *)
From stdpp Require Import gmap list.
From Coq Require Import ZArith Lia.
From OL Require Import theories.Store theories.StoreSpec theories.StoreCheck.
Local Open Scope Z_scope.

Lemma run_cons s o ops :
  run s (o :: ops) = ((step s o).1 :: outputs (step s o).2 ops, final (step s o).2 ops).
Proof.
  unfold outputs, final. cbn [run]. destruct (step s o) as [r s1]. cbn [fst snd].
  destruct (run s1 ops). reflexivity.
Qed.

Lemma final_cons s o ops : final s (o :: ops) = final (step s o).2 ops.
Proof. exact (f_equal snd (run_cons s o ops)). Qed.

Lemma final_app a : forall s b, final s (a ++ b) = final (final s a) b.
Proof.
  induction a as [|o a IH]; intros s b; [reflexivity|].
  cbn [app]. rewrite !final_cons. apply IH.
Qed.

Lemma spec_run_cons p o ops :
  spec_run p (o :: ops)
  = ((spec_step p o).1 :: spec_outputs (spec_step p o).2 ops, (spec_run (spec_step p o).2 ops).2).
Proof.
  unfold spec_outputs. cbn [spec_run]. destruct (spec_step p o) as [r p1]. cbn [fst snd].
  destruct (spec_run p1 ops). reflexivity.
Qed.

Definition wf (o : overlay) : Prop :=
  NoDup (okeys o) /\ forall k, k ∈ okeys o <-> is_Some (ovals o !! k).

Lemma wf_empty : wf oempty.
Proof. split; [constructor|]. intros k. cbn. rewrite lookup_empty, is_Some_alt. apply elem_of_nil. Qed.

Lemma wf_oset o k v : wf o -> wf (oset o k v).
Proof.
  intros [Hnd Hdom]. unfold oset. split; cbn.
  - destruct (ovals o !! k) eqn:E; [exact Hnd|].
    apply NoDup_app. split; [exact Hnd|]. split; [|apply NoDup_singleton].
    intros x Hx%Hdom ->%elem_of_list_singleton. rewrite E in Hx. destruct Hx; discriminate.
  - intros k'. rewrite lookup_insert_is_Some'.
    destruct (ovals o !! k) eqn:E; [|rewrite elem_of_app, elem_of_list_singleton]; rewrite Hdom.
    + split; [auto|]. intros [<-|H]; [rewrite E; eauto|exact H].
    + split; intros [H|H]; auto.
Qed.

Lemma wf_odel o k : wf o -> wf (odel o k).
Proof. apply wf_oset. Qed.

Lemma wf_replay o p : wf p -> wf (replay o p).
Proof.
  unfold replay. revert p. induction (okeys o) as [|a ks IH]; intros p Hp; cbn; [exact Hp|].
  apply IH. destruct (ovals o !! a); auto using wf_oset.
Qed.

(* generic because both a session commit (into the block cache) and a block write (into the tree)
   walk a first-write order [ks] and apply to each key the value recorded for it in [m] *)
Lemma fold_keys_lookup {X A} (get : X -> key -> A) (set : X -> key -> val -> X) (f : val -> A)
    (m : gmap key val) :
  (forall x a v, get (set x a v) a = f v) ->
  (forall x a v k, k <> a -> get (set x a v) k = get x k) ->
  forall ks x k, (is_Some (m !! k) -> k ∈ ks) ->
  get (fold_left (fun x a => match m !! a with Some v => set x a v | None => x end) ks x) k
  = match m !! k with Some v => f v | None => get x k end.
Proof.
  (* from the right: the last key walked is either [k], which settles the answer, or irrelevant *)
  intros Hsame Hother ks x k. induction ks as [|a ks IH] using rev_ind; intros Hk.
  { destruct (m !! k); [|reflexivity]. destruct (not_elem_of_nil k). eauto. }
  rewrite fold_left_app. cbn [fold_left].
  destruct (decide (k = a)) as [->|Hne].
  - destruct (m !! a); [apply Hsame|]. apply IH. intros [? [=]].
  - rewrite <- IH.
    + destruct (m !! a); [apply Hother, Hne|reflexivity].
    + intros [Hin| ->%elem_of_list_singleton]%Hk%elem_of_app; [exact Hin|destruct Hne; reflexivity].
Qed.

Lemma replay_vals o p : wf o -> ovals (replay o p) = ovals o ∪ ovals p.
Proof.
  intros [_ Hdom]. apply map_eq; intros k. unfold replay.
  rewrite lookup_union, (fold_keys_lookup (fun x k => ovals x !! k) oset Some).
  - destruct (ovals o !! k), (ovals p !! k); reflexivity.
  - intros x a v. apply lookup_insert.
  - intros x a v k' H. apply lookup_insert_ne. congruence.
  - apply Hdom.
Qed.

Lemma fold_okvs {X} (f : X -> key * val -> X) o x :
  fold_left f (okvs o) x
  = fold_left (fun x a => match ovals o !! a with Some v => f x (a, v) | None => x end) (okeys o) x.
Proof.
  unfold okvs. revert x. induction (okeys o) as [|a ks IH]; intros x; cbn; [reflexivity|].
  destruct (ovals o !! a); apply IH.
Qed.

Definition abs_ov (o : overlay) : layer := hide <$> ovals o.

Lemma hide_other v : v <> TOMB -> hide v = Some v.
Proof. intros H. unfold hide, is_tomb. rewrite bool_decide_eq_false_2; [reflexivity|exact H]. Qed.

Lemma is_Some_hide v : bool_decide (is_Some (hide v)) = negb (is_tomb v).
Proof. unfold hide. destruct (is_tomb v); reflexivity. Qed.

Lemma abs_oset o k v : abs_ov (oset o k v) = <[k:=hide v]> (abs_ov o).
Proof. apply fmap_insert. Qed.

Lemma abs_empty : abs_ov oempty = ∅.
Proof. apply fmap_empty. Qed.

Lemma abs_lookup o k : abs_ov o !! k = hide <$> (ovals o !! k).
Proof. apply lookup_fmap. Qed.

Lemma abs_replay o p : wf o -> abs_ov (replay o p) = abs_ov o ∪ abs_ov p.
Proof. intros Hwf. unfold abs_ov. rewrite replay_vals by exact Hwf. apply map_fmap_union. Qed.

Lemma flush_apply o t l : wf o ->
  (fold_left flush_step (okvs o) (t, l)).1 = apply_layer (abs_ov o) t.
Proof.
  intros [_ Hdom]. apply map_eq; intros k. rewrite fold_okvs.
  etransitivity;
    [apply (fold_keys_lookup (fun x k => x.1 !! k) (fun x a v => flush_step x (a, v)) hide)|].
  - intros [t' l'] a v. unfold flush_step, hide. destruct (is_tomb v); [apply lookup_delete|apply lookup_insert].
  - intros [t' l'] a v k' H. unfold flush_step. destruct (is_tomb v);
      [apply lookup_delete_ne|apply lookup_insert_ne]; congruence.
  - apply Hdom.
  - unfold apply_layer. rewrite lookup_merge, abs_lookup. cbn [fst].
    destruct (ovals o !! k), (t !! k); reflexivity.
Qed.

(* [do_write] without the pattern-matching [let] *)
Lemma do_write_eq s :
  do_write s
  = let tl := fold_left flush_step (okvs (cache s)) (tree s, wlog s) in
    {| sess := sess s ; cache := cache s ; gas := gas s ; tree := tl.1 ; saved := saved s ;
       version := version s ; lastversion := lastversion s ; rot := rot s ; wlog := tl.2 |}.
Proof. unfold do_write. destruct (fold_left _ _ _). reflexivity. Qed.

Lemma do_commit_eq s :
  do_commit s
  = let tl := fold_left flush_step (okvs (cache s)) (tree s, wlog s) in
    (OVersion (version s + 1),
     {| sess := None ; cache := oempty ; gas := None ; tree := tl.1 ;
        saved := rotate (rot s) (version s) (<[version s + 1 := tl.1]> (saved s)) ;
        version := version s + 1 ; lastversion := version s ; rot := rot s ; wlog := tl.2 ++ [TSave] |}).
Proof. unfold do_commit. rewrite do_write_eq. reflexivity. Qed.

(* the margin is for Exists, which consumes a second time (in [cache_get]) after CHECKEXIST *)
Definition gas_ok (s : state) : Prop :=
  match gas s with None => True | Some g => gused g + CHECKEXIST < glimit g end.

Definition op_ok (o : op) : Prop :=
  match o with Set_ _ v => v <> TOMB | _ => True end.

Fixpoint guarded (s : state) (ops : list op) : Prop :=
  match ops with
  | [] => True
  | o :: rest => gas_ok s /\ op_ok o /\ guarded (step s o).2 rest
  end.

Lemma guardedb_sound ops : forall s, guardedb s ops = true -> guarded s ops.
Proof.
  induction ops as [|o ops IH]; intros s H; [exact I|].
  cbn [guardedb] in H. apply andb_true_iff in H as [[H1 H2]%andb_true_iff H3].
  split; [|split; [|apply IH, H3]].
  - unfold gas_okb in H1. unfold gas_ok. destruct (gas s); [apply Z.ltb_lt, H1|exact I].
  - destruct o; try exact I. apply negb_true_iff, bool_decide_eq_false_1 in H2. exact H2.
Qed.

Definition erase (s : state) : state := with_gas s None.
Definition erase_op (o : op) : op := match o with Fresh _ => Fresh None | _ => o end.

Lemma erase_idem s : erase (erase s) = erase s.
Proof. reflexivity. Qed.

Lemma erase_None s : gas s = None -> erase s = s.
Proof. destruct s; cbn; intros ->; reflexivity. Qed.

Definition read (s : state) (k : key) : option val :=
  match (match sess s with Some o => oget o k | None => None end) with
  | Some v => hide v
  | None => match oget (cache s) k with Some v => hide v | None => tree s !! k end
  end.
Definition put (s : state) (k : key) (v : val) : state :=
  match sess s with
  | Some o => with_sess s (Some (oset o k v))
  | None => with_cache s (oset (cache s) k v)
  end.

Lemma step_free s o : gas s = None ->
  step s o = match o with
             | Get k => (OVal (read s k), s)
             | Exists_ k => (OBool (bool_decide (is_Some (read s k))), s)
             | Set_ k v => (OUnit, put s k v)
             | Delete k => (OBool true, put s k TOMB)
             | _ => step s o
             end.
Proof.
  intros Hn. rewrite <- (erase_None s Hn). destruct o; try reflexivity; cbn [step].
  - unfold do_get, cache_get, read. cbn [erase with_gas gas sess cache tree].
    destruct (match sess s with Some _ => _ | None => _ end); [reflexivity|].
    destruct (oget (cache s) k); reflexivity.
  - unfold do_set, put. cbn [erase with_gas gas sess]. destruct (sess s); reflexivity.
  - unfold do_exists, cache_exists, cache_get, read. cbn [erase with_gas gas sess cache tree].
    destruct (match sess s with Some _ => _ | None => _ end);
      [rewrite is_Some_hide; reflexivity|].
    destruct (oget (cache s) k); cbn; rewrite ?is_Some_hide; reflexivity.
  - unfold do_delete, put. cbn [erase with_gas gas sess]. destruct (sess s); reflexivity.
Qed.

Lemma consume_strict_ok g a c : gused g < glimit g ->
  consume_strict g a c = (true, {| glimit := glimit g ; gused := gused g + a * c |}).
Proof. intros H. unfold consume_strict. rewrite (proj2 (Z.leb_gt _ _) H). reflexivity. Qed.

Lemma step_erase s o : gas_ok s ->
  (step s o).1 = (step (erase s) (erase_op o)).1 /\
  erase (step s o).2 = erase (step (erase s) (erase_op o)).2.
Proof.
  unfold gas_ok. destruct (gas s) as [g|] eqn:Eg; intros Hg.
  2: { rewrite (erase_None s Eg). destruct o; split; reflexivity. }
  assert (Hlt : gused g < glimit g) by (unfold CHECKEXIST in Hg; lia).
  destruct o; cbn [step erase_op].
  5, 7, 10-12: split; reflexivity.
  - unfold do_get, cache_get. cbn [erase with_gas sess gas cache]. rewrite Eg, consume_strict_ok by exact Hlt.
    destruct (match sess s with Some _ => _ | None => _ end); [split; reflexivity|].
    destruct (oget (cache s) k); split; reflexivity.
  - unfold do_set. cbn [erase with_gas sess gas]. rewrite Eg, consume_strict_ok by exact Hlt.
    destruct (sess s); split; reflexivity.
  - unfold do_exists, cache_exists. cbn [erase with_gas sess gas cache]. rewrite Eg, consume_strict_ok by exact Hlt.
    destruct (match sess s with Some _ => _ | None => _ end); [split; reflexivity|].
    unfold cache_get. cbn [erase with_gas gas cache]. rewrite consume_strict_ok by (cbn; lia).
    destruct (oget (cache s) k); split; reflexivity.
  - unfold do_delete. cbn [erase with_gas sess gas]. rewrite Eg, consume_strict_ok by exact Hlt.
    destruct (sess s); split; reflexivity.
  - cbn [erase with_gas sess]. destruct (sess s); split; reflexivity.
  - rewrite !do_write_eq. split; reflexivity.
  - rewrite !do_commit_eq. split; reflexivity.
Qed.

Definition is_read (o : op) : bool :=
  match o with Get _ | Exists_ _ | GetVersioned _ _ => true | _ => false end.

Lemma read_noop s o : gas s = None -> is_read o = true -> (step s o).2 = s.
Proof. intros Hn Hr. rewrite step_free by exact Hn. destruct o; try discriminate; reflexivity. Qed.

Lemma step_gas_None s o : gas s = None -> (forall l, o <> Fresh (Some l)) ->
  gas (step s o).2 = None.
Proof.
  intros Hn Hf. rewrite step_free by exact Hn.
  destruct o; cbn [step snd]; unfold put; rewrite ?do_write_eq, ?do_commit_eq; try reflexivity; try exact Hn.
  1-3: destruct (sess s); exact Hn.
  destruct limit as [l|]; [destruct (Hf l eq_refl)|reflexivity].
Qed.

Fixpoint gas_guarded (s : state) (ops : list op) : Prop :=
  match ops with
  | [] => True
  | o :: rest => gas_ok s /\ gas_guarded (step s o).2 rest
  end.

Lemma run_erase ops : forall s s0, gas_guarded s ops -> erase s = erase s0 -> gas s0 = None ->
  outputs s ops = outputs s0 (map erase_op ops) /\
  erase (final s ops) = erase (final s0 (map erase_op ops)).
Proof.
  induction ops as [|o ops IH]; intros s s0 Hgd He Hn; [split; [reflexivity|exact He]|].
  destruct Hgd as [Hg Hgd]. rewrite (erase_None s0 Hn) in He. subst s0. destruct (step_erase s o Hg) as [E1 E2].
  cbn [map]. unfold outputs. rewrite !run_cons, !final_cons, E1. cbn [fst].
  destruct (IH _ _ Hgd E2) as [-> E]; [|split; [reflexivity|exact E]].
  apply step_gas_None; [reflexivity|]. destruct o; discriminate.
Qed.

Definition R (s : state) (p : spec) : Prop :=
  (abs_ov <$> sess s) = p_sess p /\ abs_ov (cache s) = p_blk p /\ tree s = p_tree p /\
  saved s = p_saved p /\ version s = p_version p /\ lastversion s = p_last p /\
  rot s = p_rot p /\
  match sess s with Some o => wf o | None => True end /\ wf (cache s).

Definition abs (s : state) : spec :=
  {| p_sess := abs_ov <$> sess s ; p_blk := abs_ov (cache s) ; p_tree := tree s ;
     p_saved := saved s ; p_version := version s ; p_last := lastversion s ; p_rot := rot s |}.
Definition inv (s : state) : Prop :=
  match sess s with Some o => wf o | None => True end /\ wf (cache s).

Lemma R_abs s p : R s p <-> p = abs s /\ inv s.
Proof.
  split.
  - destruct p. unfold R. cbn. intros (<- & <- & <- & <- & <- & <- & <- & Hi). split; [reflexivity|exact Hi].
  - intros [-> Hi]. repeat split; apply Hi.
Qed.

Lemma R_init r : R (init r) (spec_init r).
Proof.
  apply R_abs. split; [|split; [exact I|apply wf_empty]].
  unfold abs, init. cbn -[abs_ov]. rewrite abs_empty. reflexivity.
Qed.

Lemma read_abs s k : spec_read (abs s) k = read s k.
Proof.
  unfold spec_read, read, oget. cbn. rewrite abs_lookup.
  destruct (sess s) as [o|]; cbn; [rewrite abs_lookup; destruct (ovals o !! k); [reflexivity|]|];
    destruct (ovals (cache s) !! k); reflexivity.
Qed.

Lemma put_abs s k v : abs (put s k v) = spec_write (abs s) k (hide v).
Proof.
  unfold put, spec_write, abs. cbn -[abs_ov]. destruct (sess s) eqn:E; cbn -[abs_ov]; rewrite ?E, abs_oset; reflexivity.
Qed.

Lemma put_inv s k v : inv s -> inv (put s k v).
Proof. unfold put, inv. destruct (sess s) eqn:E; cbn; rewrite ?E; intros [Hs Hc]; auto using wf_oset. Qed.

Lemma step_abs s o : inv s -> gas s = None -> op_ok o ->
  spec_step (abs s) o = ((step s o).1, abs (step s o).2) /\ inv (step s o).2.
Proof.
  intros Hi Hn Ho. rewrite (step_free s o Hn). pose proof Hi as [Hs Hc].
  destruct o; cbn [spec_step step fst snd].
  - rewrite read_abs. auto.
  - rewrite put_abs, (hide_other v Ho). auto using put_inv.
  - rewrite read_abs. auto.
  - rewrite put_abs. auto using put_inv.
  - unfold abs, inv. cbn -[abs_ov]. rewrite abs_empty. auto using wf_empty.
  - unfold abs, inv. cbn -[abs_ov]. destruct (sess s) as [o|] eqn:E; cbn -[abs_ov]; rewrite ?E; [|auto].
    rewrite abs_replay by exact Hs. auto using wf_replay.
  - unfold inv. cbn. auto.
  - rewrite do_write_eq. unfold abs, inv. cbn -[abs_ov]. rewrite flush_apply by exact Hc. auto.
  - rewrite do_commit_eq. unfold abs, inv. cbn -[abs_ov]. rewrite flush_apply, abs_empty by exact Hc.
    auto using wf_empty.
  - auto.
  - unfold abs, inv. cbn -[abs_ov]. rewrite abs_empty. auto using wf_empty.
  - unfold abs, inv. cbn -[abs_ov]. rewrite abs_empty. auto using wf_empty.
Qed.

Lemma R_erase s s' p : erase s = erase s' -> R s p -> R s' p.
Proof. intros E H. change (R (erase s') p). rewrite <- E. exact H. Qed.

Lemma step_refines s p o : R s p -> gas_ok s -> op_ok o ->
  (step s o).1 = (spec_step p o).1 /\ R (step s o).2 (spec_step p o).2.
Proof.
  (* erase the counter on the store's side: neither [abs] nor [inv] nor the reference looks at it *)
  intros [-> Hi]%R_abs Hg Ho. destruct (step_erase s o Hg) as [-> E].
  destruct (step_abs (erase s) (erase_op o) Hi eq_refl) as [E' Hi']; [destruct o; exact Ho|].
  replace (spec_step (abs s) o) with (spec_step (abs (erase s)) (erase_op o)) by (destruct o; reflexivity).
  rewrite E'. split; [reflexivity|]. apply (R_erase _ _ _ (eq_sym E)), R_abs. split; [reflexivity|exact Hi'].
Qed.

Theorem store_refines_spec ops : forall s p, R s p -> guarded s ops ->
  outputs s ops = spec_outputs p ops /\ R (final s ops) (spec_run p ops).2.
Proof.
  induction ops as [|o ops IH]; intros s p HR Hgd; [split; [reflexivity|exact HR]|].
  destruct Hgd as (Hg & Ho & Hgd). destruct (step_refines s p o HR Hg Ho) as [E HR'].
  destruct (IH _ _ HR' Hgd) as [E' HR''].
  unfold outputs, spec_outputs. rewrite run_cons, final_cons, spec_run_cons, E, E'. split; [reflexivity|exact HR''].
Qed.

Definition no_gas_ops (ops : list op) : Prop := Forall (fun o => forall l, o <> Fresh (Some l)) ops.

Theorem reads_invisible ops : forall s, gas s = None -> no_gas_ops ops ->
  final s ops = final s (filter (fun o => negb (is_read o)) ops).
Proof.
  induction ops as [|o ops IH]; intros s Hn Hf; [reflexivity|]. apply Forall_cons in Hf as [Ho Hf].
  rewrite final_cons. cbn [filter list_filter]. destruct (is_read o) eqn:Er; simpl.
  - rewrite read_noop by assumption. apply IH; assumption.
  - rewrite final_cons. apply IH; [apply step_gas_None|]; assumption.
Qed.

Definition is_data (o : op) : bool :=
  match o with Get _ | Set_ _ _ | Exists_ _ | Delete _ => true | _ => false end.

Definition sess_step (o : overlay) (x : op) : overlay :=
  match x with Set_ k v => oset o k v | Delete k => odel o k | _ => o end.

Lemma with_sess_same s : with_sess s (sess s) = s.
Proof. destruct s; reflexivity. Qed.

Lemma with_sess_None s : sess s = None -> with_sess s None = s.
Proof. intros <-. apply with_sess_same. Qed.

Lemma data_in_session s o ov : gas s = None -> sess s = Some ov -> is_data o = true ->
  (step s o).2 = with_sess s (Some (sess_step ov o)).
Proof.
  intros Hn Hs Hd. rewrite step_free by exact Hn.
  destruct o; try discriminate; cbn [snd sess_step]; unfold put, odel; rewrite ?Hs; try reflexivity;
    rewrite <- Hs; symmetry; apply with_sess_same.
Qed.

Lemma session_run p : forall s ov, gas s = None -> forallb is_data p = true ->
  final (with_sess s (Some ov)) p = with_sess s (Some (fold_left sess_step p ov)).
Proof.
  induction p as [|o p IH]; intros s ov Hn Hp; [reflexivity|]. apply andb_true_iff in Hp as [Ho Hp].
  rewrite final_cons, (data_in_session (with_sess s (Some ov)) o ov Hn eq_refl Ho). apply (IH s _ Hn Hp).
Qed.

Definition pend_ok (pend : option (list op)) (s : state) : Prop :=
  match pend with
  | Some p => forallb is_data p = true /\ sess s = Some (fold_left sess_step p oempty)
  | None => sess s = None
  end.

Lemma put_no_session s k v : sess s = None -> sess (put s k v) = None.
Proof. intros H. unfold put. rewrite H. exact H. Qed.

Lemma strip_aux_data pend o ops : is_data o = true ->
  strip_aux pend (o :: ops)
  = if is_read o then strip_aux pend ops
    else match pend with Some p => strip_aux (Some (p ++ [o])) ops | None => o :: strip_aux None ops end.
Proof. destruct o; try discriminate; reflexivity. Qed.

Lemma strip_sim ops : forall pend a b, gas a = None -> no_gas_ops ops -> pend_ok pend a ->
  b = with_sess a None ->
  with_sess (final a ops) None = with_sess (final b (strip_aux pend ops)) None.
Proof.
  induction ops as [|o ops IH]; intros pend a b Hn Hf Hp ->; [reflexivity|].
  apply Forall_cons in Hf as [Ho Hf]. pose proof (step_gas_None a o Hn Ho) as Hn'. rewrite final_cons.
  destruct (is_data o) eqn:Hd.
  { rewrite strip_aux_data by exact Hd. destruct (is_read o) eqn:Hr.
    { rewrite read_noop by assumption. apply (IH pend); auto. }
    destruct pend as [p|]; [destruct Hp as [Hp Hs]|].
    - rewrite (data_in_session a o _ Hn Hs Hd).
      apply (IH (Some (p ++ [o]))); [exact Hn|exact Hf| |reflexivity].
      split; [rewrite forallb_app, Hp; cbn; rewrite Hd; reflexivity|].
      rewrite fold_left_app. reflexivity.
    - rewrite final_cons, (with_sess_None a Hp).
      assert (Hs' : sess (step a o).2 = None)
        by (rewrite step_free by exact Hn; destruct o; try discriminate; apply put_no_session, Hp).
      apply (IH None); [exact Hn'|exact Hf|exact Hs'|symmetry; apply with_sess_None, Hs']. }
  destruct o; try discriminate; cbn [strip_aux].
  - (* BeginTx *) apply (IH (Some [])); [exact Hn|exact Hf|split; reflexivity|reflexivity].
  - (* CommitTx *) destruct pend as [p|]; [destruct Hp as [Hp Hs]|].
    + rewrite final_cons, final_app. cbn [step snd].
      rewrite (session_run p (with_sess a None) oempty Hn Hp), final_cons. cbn [step]. rewrite Hs.
      apply (IH None); [exact Hn|exact Hf|reflexivity|reflexivity].
    + cbn [step]. rewrite Hp. apply (IH None); auto.
  - (* DiscardTx *) apply (IH None); [exact Hn|exact Hf|reflexivity|reflexivity].
  - (* Write *) rewrite final_cons. cbn [step snd]. rewrite !do_write_eq.
    apply (IH pend); [exact Hn|exact Hf|exact Hp|reflexivity].
  - (* BlockCommit *) rewrite final_cons. apply (IH None); [exact Hn'|exact Hf|reflexivity|].
    cbn [step]. rewrite !do_commit_eq. reflexivity.
  - (* GetVersioned *) apply (IH pend); auto.
  - (* Fresh *) rewrite final_cons. apply (IH None); [exact Hn'|exact Hf|reflexivity|reflexivity].
  - (* Reopen *) rewrite final_cons. apply (IH None); [exact Hn'|exact Hf|reflexivity|reflexivity].
Qed.

Lemma flush_log kvs : forall t l, exists l', (fold_left flush_step kvs (t, l)).2 = l ++ l'.
Proof.
  induction kvs as [|[k v] kvs IH]; intros t l; [exists []; symmetry; apply app_nil_r|].
  cbn [fold_left flush_step].
  destruct (is_tomb v); [destruct (IH (delete k t) (l ++ [TRemove k])) as [l' ->]
                        |destruct (IH (<[k:=v]> t) (l ++ [TSet k v])) as [l' ->]];
    rewrite <- app_assoc; eauto.
Qed.

Lemma step_frame s o :
  (o <> BlockCommit -> saved (step s o).2 = saved s /\ version (step s o).2 = version s) /\
  exists l, wlog (step s o).2 = wlog s ++ l.
Proof.
  assert (Same : forall s', saved s' = saved s -> version s' = version s -> wlog s' = wlog s ->
    (o <> BlockCommit -> saved s' = saved s /\ version s' = version s) /\
    exists l, wlog s' = wlog s ++ l).
  { intros s' -> -> ->. split; [auto|]. exists []. symmetry. apply app_nil_r. }
  destruct o; cbn [step].
  5, 7, 10-12: apply Same; reflexivity.
  - unfold do_get. destruct (match sess s with Some _ => _ | None => _ end);
      [|destruct (cache_get s k) as [[?|] ?]]; apply Same; reflexivity.
  - unfold do_set. destruct (sess s); [|destruct (gas s) as [g|];
      [destruct (consume_strict g 1 WRITEFLAT) as [[] ?]|]]; apply Same; reflexivity.
  - unfold do_exists. destruct (match sess s with Some _ => _ | None => _ end);
      [|destruct (cache_exists s k) as [[] ?]; [destruct (cache_get _ k) as [[?|] ?]|]]; apply Same; reflexivity.
  - unfold do_delete. destruct (sess s); [|destruct (gas s) as [g|];
      [destruct (consume_strict g 1 DELETEGAS) as [[] ?]|]]; apply Same; reflexivity.
  - destruct (sess s); apply Same; reflexivity.
  - rewrite do_write_eq. split; [auto|]. apply flush_log.
  - rewrite do_commit_eq. split; [congruence|]. cbn [snd wlog].
    destruct (flush_log (okvs (cache s)) (tree s) (wlog s)) as [l' ->]. rewrite <- app_assoc. eauto.
Qed.

Lemma run_versions ops : forall s, Forall (fun o => o <> BlockCommit) ops ->
  saved (final s ops) = saved s /\ version (final s ops) = version s.
Proof.
  induction ops as [|o ops IH]; intros s Hf; [auto|]. apply Forall_cons in Hf as [Ho Hf].
  rewrite final_cons. destruct (IH (step s o).2 Hf) as [-> ->]. apply step_frame, Ho.
Qed.

Definition not_reopen (c : tcall) : bool := match c with CReopen => false | _ => true end.

Theorem tree_calls_are_wlog ops : forall s,
  map tcall_of (wlog (final s ops)) = map tcall_of (wlog s) ++ filter not_reopen (tree_calls s ops).
Proof.
  induction ops as [|o ops IH]; intros s; [symmetry; apply app_nil_r|].
  rewrite final_cons, IH. cbn [tree_calls]. destruct (step_frame s o) as [_ [l' ->]].
  rewrite drop_app, map_app, <- app_assoc, !filter_app. f_equal. f_equal; [|destruct o; reflexivity].
  induction l' as [|x l' IHl]; [reflexivity|].
  cbn [map]. rewrite filter_cons_True by (destruct x; exact I). f_equal. exact IHl.
Qed.

Lemma delete_if_keeps {V} (c : bool) a v (m : gmap Z V) t :
  (if c then delete a m else m) !! v = Some t -> m !! v = Some t.
Proof. destruct c; [|auto]. rewrite lookup_delete_Some. tauto. Qed.

Lemma delete_if_retains {V} (c : bool) a v (m : gmap Z V) :
  v <> a -> (if c then delete a m else m) !! v = m !! v.
Proof. intros H. destruct c; [|reflexivity]. apply lookup_delete_ne. congruence. Qed.

Lemma rotate_keeps r lastv sv v t : rotate r lastv sv !! v = Some t -> sv !! v = Some t.
Proof.
  unfold rotate. destruct (0 <? lastv - recent r); [|auto]. cbv zeta.
  intros H. repeat apply delete_if_keeps in H. exact H.
Qed.

Lemma rotate_retains r lastv sv v :
  v <> lastv - recent r -> v <> lastv - recent r - cycles r * every r ->
  rotate r lastv sv !! v = sv !! v.
Proof.
  intros H1 H2. unfold rotate. destruct (0 <? lastv - recent r); [|reflexivity]. cbv zeta.
  rewrite !delete_if_retains by assumption. reflexivity.
Qed.

Lemma rotate_latest r lastv sv t : 0 <= recent r -> 0 <= every r -> 0 <= cycles r -> 0 <= lastv ->
  rotate r lastv (<[lastv + 1 := t]> sv) !! (lastv + 1) = Some t.
Proof. intros Hr He Hc _. rewrite rotate_retains by nia. apply lookup_insert. Qed.

Lemma commit_saved s :
  saved (step s BlockCommit).2
  = rotate (rot s) (version s) (<[version s + 1 := tree (step s BlockCommit).2]> (saved s)).
Proof. cbn [step]. rewrite do_commit_eq. reflexivity. Qed.

Definition versions_below (s : state) : Prop := forall v, v > version s -> saved s !! v = None.

Lemma saved_shrinks s o v t : v <> version s + 1 ->
  saved (step s o).2 !! v = Some t -> saved s !! v = Some t.
Proof.
  intros Hv H. assert (o = BlockCommit \/ o <> BlockCommit) as [->|Ho]
    by (destruct o; try (right; discriminate); left; reflexivity).
  - rewrite commit_saved in H. apply rotate_keeps in H.
    rewrite lookup_insert_ne in H by congruence. exact H.
  - rewrite (proj1 (proj1 (step_frame s o) Ho)) in H. exact H.
Qed.

Lemma commit_tree s : wf (cache s) ->
  version (step s BlockCommit).2 = version s + 1 /\
  tree (step s BlockCommit).2 = apply_layer (abs_ov (cache s)) (tree s).
Proof.
  intros Hwf. cbn [step]. rewrite do_commit_eq. cbn. rewrite flush_apply by exact Hwf. auto.
Qed.

Lemma set_cases s k v :
  step s (Set_ k v) = (OErr, s) \/
  (step s (Set_ k v)).1 = OUnit /\ erase (step s (Set_ k v)).2 = erase (put s k v).
Proof.
  cbn [step]. unfold do_set, put. destruct (sess s); [right; split; reflexivity|].
  destruct (gas s) as [g|]; [|right; split; reflexivity].
  destruct (consume_strict g 1 WRITEFLAT) as [[] ?]; [right; split; reflexivity|left; reflexivity].
Qed.
