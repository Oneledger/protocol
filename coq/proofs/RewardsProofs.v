(* Lemmas about the block-reward model theories/Rewards.v; the theorems of props/C13.v follow
   from them. *)
From Coq Require Import ZArith List Bool Lia.
From OL Require Import theories.Rewards.
Import ListNotations.
Local Open Scope Z_scope.

Lemma ediv_pos a b : 0 < b -> ediv a b = a / b.
Proof. intros H. unfold ediv. apply Z.ltb_lt in H. rewrite H. reflexivity. Qed.

Lemma ediv_nonneg x n : 0 <= x -> 0 < n -> 0 <= ediv x n.
Proof. intros. rewrite ediv_pos by assumption. apply Z.div_pos; assumption. Qed.

Lemma ediv_le_self x n : 0 <= x -> ediv x n <= x.
Proof.
  intros Hx. unfold ediv. destruct (Z.ltb_spec 0 n).
  - apply Z.div_le_upper_bound; nia.
  - destruct (Z.eq_dec n 0) as [->|Hn]; [simpl; rewrite Zdiv_0_r; lia|].
    assert (0 <= x / - n) by (apply Z.div_pos; lia). lia.
Qed.

Lemma div_add_le a b T : 0 < T -> a / T + b / T <= (a + b) / T.
Proof.
  intros HT. apply Z.div_le_lower_bound; [exact HT|].
  pose proof (Z.mul_div_le a T HT). pose proof (Z.mul_div_le b T HT). lia.
Qed.

Lemma div_frac_le X S T : 0 <= X -> 0 <= S <= T -> 0 < T -> X * S / T <= X.
Proof. intros HX HS HT. apply Z.div_le_upper_bound; [exact HT|nia]. Qed.

Lemma zsum_app l1 l2 : zsum (l1 ++ l2) = zsum l1 + zsum l2.
Proof. induction l1; simpl; lia. Qed.

Lemma zsum_map_add {A} (f g : A -> Z) l :
  zsum (map (fun x => f x + g x) l) = zsum (map f l) + zsum (map g l).
Proof. induction l; simpl; lia. Qed.

Lemma zsum_map_zero {A} (f : A -> Z) l : (forall a, In a l -> f a = 0) -> zsum (map f l) = 0.
Proof.
  intros H. induction l as [|a l IH]; simpl; [reflexivity|].
  rewrite (H a (in_eq a l)), IH; [reflexivity|]. intros b Hb. apply H, in_cons, Hb.
Qed.

Lemma zsum_nonneg {A} (w : A -> Z) l : Forall (fun a => 0 <= w a) l -> 0 <= zsum (map w l).
Proof. induction 1; simpl; lia. Qed.

Lemma zsum_filter_le {A} (w : A -> Z) f l : Forall (fun a => 0 <= w a) l ->
  0 <= zsum (map w (filter f l)) <= zsum (map w l).
Proof. induction 1 as [|a l Ha _ IH]; simpl; [lia|]. destruct (f a); simpl; lia. Qed.

Lemma floor_sum {A} (w : A -> Z) X T l : 0 < T ->
  zsum (map (fun a => ediv (X * w a) T) l) <= X * zsum (map w l) / T.
Proof.
  intros HT. induction l as [|a l IH]; simpl.
  - rewrite Z.mul_0_r, Zdiv_0_l. lia.
  - rewrite ediv_pos, Z.mul_add_distr_l by exact HT.
    pose proof (div_add_le (X * w a) (X * zsum (map w l)) T HT). lia.
Qed.

Lemma floor_sum_le {A} (w : A -> Z) X T l : 0 < T -> 0 <= X -> 0 <= zsum (map w l) <= T ->
  zsum (map (fun a => ediv (X * w a) T) l) <= X.
Proof.
  intros HT HX HS. pose proof (floor_sum w X T l HT). pose proof (div_frac_le X _ T HX HS HT). lia.
Qed.

Lemma floor_sum_each_nonneg X T (ps : list Z) : 0 < T -> 0 <= X -> Forall (fun p => 0 <= p) ps ->
  Forall (fun x => 0 <= x) (map (fun p => X * p / T) ps).
Proof.
  intros HT HX H. induction H; simpl; constructor; auto. apply Z.div_pos; nia.
Qed.

Lemma vpow_nonneg v : 0 <= v_power v -> 0 <= vpow v.
Proof. intros H. apply Z.mul_nonneg_nonneg; [exact H|discriminate]. Qed.

Lemma pow_lookup_notin votes a acc : ~ In a (map v_addr votes) -> pow_lookup votes a acc = acc.
Proof.
  revert acc. induction votes as [|v r IH]; simpl; intros acc H; [reflexivity|].
  destruct (Z.eqb_spec (v_addr v) a); [tauto|]. apply IH. tauto.
Qed.

Lemma pow_lookup_nodup votes v acc : NoDup (map v_addr votes) -> In v votes ->
  pow_lookup votes (v_addr v) acc = vpow v.
Proof.
  revert acc. induction votes as [|w r IH]; simpl; intros acc ND HIn; [contradiction|].
  inversion_clear ND as [|? ? Hni ND']. destruct HIn as [->|HIn].
  - rewrite Z.eqb_refl. apply pow_lookup_notin, Hni.
  - apply IH; assumption.
Qed.

Lemma proposer_once votes pr P : 0 <= P -> NoDup (map v_addr votes) ->
  zsum (map (fun v => if v_addr v =? pr then P else 0) votes) <= P.
Proof.
  intros HP. induction votes as [|v r IH]; simpl; intros ND; [exact HP|].
  inversion_clear ND as [|? ? Hni ND']. destruct (Z.eqb_spec (v_addr v) pr) as [<-|_]; [|tauto].
  rewrite zsum_map_zero; [lia|]. intros w Hw.
  destruct (Z.eqb_spec (v_addr w) (v_addr v)) as [E|_]; [|reflexivity].
  elim Hni. rewrite <- E. apply in_map, Hw.
Qed.

Definition consts_ok (k : consts) : Prop := 0 <= COMM k <= 100 /\ 0 <= BPC k <= 100.

Lemma pct_bounds c x : 0 <= c <= 100 -> 0 <= x -> 0 <= ediv (c * x) 100 <= x.
Proof.
  intros Hc Hx. rewrite ediv_pos by reflexivity.
  split; [apply Z.div_pos|apply Z.div_le_upper_bound]; nia.
Qed.

Lemma pool_part_spec k R dp T delegs dr (rew := if 0 <? dp then d_rewards dr else 0) :
  dr = (if 0 <? dp then deleg_split k R dp T delegs else dresp0) ->
  consts_ok k -> 0 <= R -> 0 <= dp -> 0 < T ->
  Forall (fun d => 0 <= snd d) delegs -> zsum (map snd delegs) <= dp ->
  0 <= d_commission dr /\ 0 <= d_proposer dr /\
  rew + d_commission dr + d_proposer dr = R * dp / T /\
  zsum (map snd (d_credits dr)) <= rew /\
  Forall (fun c => 0 <= snd c) (d_credits dr).
Proof.
  intros -> [HC HB] HR Hdp HT Hdel Hsum. subst rew. destruct (Z.ltb_spec 0 dp) as [Hp|Hp].
  2:{ replace dp with 0 by lia. rewrite Z.mul_0_r, Zdiv_0_l. cbn. repeat split; (reflexivity || constructor). }
  rewrite <- (ediv_pos (R * dp) T HT).
  set (D := ediv (R * dp) T). assert (HD : 0 <= D) by (apply ediv_nonneg; [nia|exact HT]).
  set (C := ediv (COMM k * D) 100). pose proof (pct_bounds (COMM k) D HC HD) as HCb. fold C in HCb.
  set (P := ediv (BPC k * C) 100). pose proof (pct_bounds (BPC k) C HB (proj1 HCb)) as HPb. fold P in HPb.
  (* the two early returns of handleDelegationRewards (a negative Amount.Minus) are never taken *)
  replace (deleg_split k R dp T delegs)
    with (mkDresp (D - C) P (C - P) (map (fun d => (fst d, ediv ((D - C) * snd d) dp)) delegs)).
  2:{ unfold deleg_split. cbv zeta. fold D. fold C. fold P.
      rewrite !(proj2 (Z.ltb_ge _ 0)) by lia. reflexivity. }
  cbn [d_commission d_proposer d_rewards d_credits]. rewrite map_map. cbn [snd].
  repeat split; try lia.
  - apply floor_sum_le; [lia|lia|]. split; [apply zsum_nonneg, Hdel|exact Hsum].
  - apply Forall_map. cbn [snd]. eapply Forall_impl; [|exact Hdel].
    intros d Hd. apply ediv_nonneg, Hp. apply Z.mul_nonneg_nonneg; [lia|exact Hd].
Qed.

Lemma vals_bounded votes f R dp T dr pr (cr := filter f votes)
    (vals := map (fun v => (v_addr v, val_amount votes R dp T dr pr v)) cr) :
  NoDup (map v_addr votes) -> Forall (fun v => 0 <= vpow v) votes -> zsum (map vpow votes) <= T ->
  0 < T -> 0 <= R -> 0 <= d_commission dr -> 0 <= d_proposer dr ->
  zsum (map snd vals) <= R * zsum (map vpow cr) / T + (d_commission dr + d_proposer dr) /\
  Forall (fun c => 0 <= snd c) vals.
Proof.
  intros Hnd Hvp HS HT HR HC HP. subst vals.
  set (bonus v := if v_addr v =? pr then d_proposer dr else 0).
  set (cm v := if 0 <? dp then ediv (d_commission dr * vpow v) T + bonus v else 0).
  assert (Heq : forall v, In v cr -> val_amount votes R dp T dr pr v = ediv (R * vpow v) T + cm v).
  { intros v Hv%filter_In. unfold val_amount. rewrite (pow_lookup_nodup votes v 0 Hnd (proj1 Hv)).
    reflexivity. }
  assert (Hb : Forall (fun v => 0 <= bonus v) votes).
  { apply Forall_forall. intros v _. unfold bonus. destruct (_ =? _); [exact HP|reflexivity]. }
  split.
  - rewrite map_map. cbn [snd].
    rewrite (map_ext_in _ (fun v => ediv (R * vpow v) T + cm v) cr), zsum_map_add by exact Heq.
    pose proof (floor_sum vpow R T cr HT).
    enough (zsum (map cm cr) <= d_commission dr + d_proposer dr) by lia.
    unfold cm. destruct (0 <? dp); [|rewrite zsum_map_zero; [lia|reflexivity]].
    rewrite zsum_map_add.
    pose proof (zsum_filter_le vpow f votes Hvp) as Hcr. fold cr in Hcr.
    pose proof (floor_sum_le vpow (d_commission dr) T cr HT HC ltac:(lia)).
    pose proof (proj2 (zsum_filter_le bonus f votes Hb)) as Hbn. fold cr in Hbn.
    pose proof (proposer_once votes pr _ HP Hnd) as Hpr. fold bonus in Hpr. lia.
  - apply Forall_map, Forall_forall. intros v Hv. cbn [snd]. rewrite (Heq v Hv).
    apply filter_In, proj1 in Hv. rewrite Forall_forall in Hvp, Hb.
    specialize (Hvp v Hv). specialize (Hb v Hv).
    pose proof (ediv_nonneg (R * vpow v) T ltac:(nia) HT).
    pose proof (ediv_nonneg (d_commission dr * vpow v) T ltac:(nia) HT).
    unfold cm. destruct (0 <? dp); lia.
Qed.

Lemma split_bounded k votes dp delegs proposer R out :
  consts_ok k -> 0 <= R -> 0 <= dp ->
  Forall (fun v => 0 <= v_power v) votes -> NoDup (map v_addr votes) ->
  Forall (fun d => 0 <= snd d) delegs -> zsum (map snd delegs) <= dp ->
  split k votes dp delegs proposer R = Some out ->
  zsum (map snd (so_vals out)) + zsum (map snd (so_delegs out)) <= so_consumed out <= R /\
  Forall (fun c => 0 <= snd c) (so_vals out) /\
  Forall (fun c => 0 <= snd c) (so_delegs out).
Proof.
  intros Hk HR Hdp Hpow Hnd Hdel Hdsum. unfold split.
  set (T := zsum (map vpow votes) + dp). set (cr := filter credited votes).
  assert (Hvp : Forall (fun v => 0 <= vpow v) votes) by (eapply Forall_impl; [apply vpow_nonneg|exact Hpow]).
  pose proof (zsum_filter_le vpow credited votes Hvp) as Hcr. fold cr in Hcr.
  destruct (Z.eqb_spec T 0) as [ET|ET]; cbn [andb].
  - (* no power at all: nothing is credited, or the code divides by zero *)
    destruct (Z.ltb_spec 0 dp); [discriminate|]. destruct cr; [|discriminate].
    intros [= <-]. exact (conj (conj (Z.le_refl 0) HR) (conj (Forall_nil _) (Forall_nil _))).
  - assert (HT : 0 < T) by lia. set (dr := if 0 <? dp then _ else _).
    intros [= <-]. cbn [so_vals so_delegs so_consumed].
    destruct (pool_part_spec k R dp T delegs dr eq_refl Hk HR Hdp HT Hdel Hdsum) as (HC & HP & HD & Hcred & Hcn).
    destruct (vals_bounded votes credited R dp T dr proposer Hnd Hvp ltac:(lia) HT HR HC HP) as [Hv Hvn].
    fold cr in Hv, Hvn. split; [|exact (conj Hvn Hcn)].
    (* the validators' and the pool's shares of R together are within R *)
    pose proof (div_add_le (R * zsum (map vpow cr)) (R * dp) T HT) as H.
    rewrite <- Z.mul_add_distr_l in H.
    pose proof (div_frac_le R (zsum (map vpow cr) + dp) T HR ltac:(lia) HT). lia.
Qed.

Lemma cget_cset s v w x : cget (cset s v x) w = if v =? w then x else cget s w.
Proof. reflexivity. Qed.

Lemma cstep_inv s op v (s' := fst (cstep s op)) : matured_ok op = true -> 0 <= fst (cget s v) ->
  0 <= fst (cget s' v) /\
  fst (cget s' v) + snd (cget s' v) = fst (cget s v) + snd (cget s v) + matured_of [op] v /\
  snd (cget s' v) = snd (cget s v) + paid_of s [op] v.
Proof.
  unfold s'. destruct op as [a x|a x]; cbn [matured_ok matured_of paid_of cstep]; intros Hop Hs.
  - apply Z.leb_le in Hop. cbn [fst]. rewrite cget_cset.
    destruct (Z.eqb_spec a v) as [->|_]; cbn [fst snd]; lia.
  - destruct (Z.ltb_spec (fst (cget s a) - x) 0); cbn [fst snd]; [rewrite andb_false_r; lia|].
    rewrite cget_cset. destruct (Z.eqb_spec a v) as [->|_]; cbn [fst snd andb]; lia.
Qed.

Lemma crun_inv ops v : Forall (fun op => matured_ok op = true) ops -> forall s, 0 <= fst (cget s v) ->
  0 <= fst (cget (crun s ops) v) /\
  fst (cget (crun s ops) v) + snd (cget (crun s ops) v)
    = fst (cget s v) + snd (cget s v) + matured_of ops v /\
  snd (cget (crun s ops) v) = snd (cget s v) + paid_of s ops v /\
  snd (cget s v) + paid_of s ops v <= fst (cget s v) + snd (cget s v) + matured_of ops v.
Proof.
  induction 1 as [|op r Hop _ IH]; intros s Hs; [cbn; lia|].
  destruct (cstep_inv s op v Hop Hs) as (H1 & H2 & H3).
  destruct (IH _ H1) as (I1 & I2 & I3 & _).
  change (crun s (op :: r)) with (crun (fst (cstep s op)) r).
  enough (matured_of (op :: r) v = matured_of [op] v + matured_of r v /\
          paid_of s (op :: r) v = paid_of s [op] v + paid_of (fst (cstep s op)) r v) by lia.
  clear. destruct op; cbn [matured_of paid_of]; lia.
Qed.

Lemma secs_pos o bt h : 0 < fst (secs_per_cycle o bt h).
Proof. unfold secs_per_cycle. destruct (o_cycle o <? h); cbn [fst]; lia. Qed.

Lemma recompute_spec o bt ys h c r c' : recompute o bt ys h c = (r, c') ->
  match r with
  | CErr => c' = cold
  | COk a =>
      c_amt c' = a /\
      (if c_burned c' then c_amt c' = o_burnout o else c_amt c' <= year_left o ys (c_year c'))
  end.
Proof.
  unfold recompute.
  set (nb := more_blocks o _ _ ys 0). fold (year_left o ys (snd nb)).
  destruct (fst nb =? 0); [|destruct (Z.ltb_spec (year_left o ys (snd nb)) 0)]; intros [= <- <-]; cbn;
    auto using ediv_le_self.
Qed.

Lemma recompute_indep o bt ys h c c2 : recompute o bt ys h c = recompute o bt ys h c2.
Proof. reflexivity. Qed.

Lemma calculate_cases o bt ys h c :
  calculate o bt ys h c = recompute o bt ys h c \/
  warm c = true /\ first_in_cycle o h = false /\ calculate o bt ys h c = (COk (c_amt c), c).
Proof. unfold calculate. destruct (warm c), (first_in_cycle o h); auto. Qed.

Lemma calculate_spec o bt ys h c r c' :
  cache_inv o ys c \/ first_in_cycle o h = true -> calculate o bt ys h c = (r, c') ->
  match r with
  | CErr => c' = cold
  | COk a =>
      c_amt c' = a /\
      (if c_burned c' then c_amt c' = o_burnout o else c_amt c' <= year_left o ys (c_year c'))
  end.
Proof.
  intros Hinv H. destruct (calculate_cases o bt ys h c) as [E|(Hw & Hf & E)]; rewrite E in H.
  - exact (recompute_spec _ _ _ _ _ _ _ H).
  - injection H as <- <-. destruct Hinv as [Hinv|Hf']; [exact (conj eq_refl (Hinv Hw))|congruence].
Qed.

Lemma cache_inv_cold o ys : cache_inv o ys cold.
Proof. intros H. discriminate. Qed.

Lemma pull_spec o bt ys h pool c r c' :
  cache_inv o ys c \/ first_in_cycle o h = true ->
  pull o bt ys h pool c = (r, c') ->
  match r with
  | CErr => c' = cold
  | COk a => pull_bound o ys pool c' a = true /\ cache_inv o ys c'
  end.
Proof.
  intros Hinv. unfold pull.
  destruct (calculate o bt ys h c) as [r1 c1] eqn:E. apply (calculate_spec _ _ _ _ _ _ _ Hinv) in E.
  destruct r1 as [a1|]; intros [= <- <-]; [|exact E].
  destruct E as [<- Hb]. split; [|intros _; exact Hb].
  unfold pull_bound. destruct (c_burned c1); cbn [andb]; [|apply Z.leb_le, Hb].
  rewrite Hb. destruct (Z.ltb_spec pool (o_burnout o)); apply Z.leb_le; lia.
Qed.

Lemma nth_upd_year_till ys n f d k : (forall y, y_till (f y) = y_till y) ->
  y_till (nth k (upd_year ys n f) d) = y_till (nth k ys d).
Proof.
  intros Hf. revert n k. induction ys as [|y r IH]; intros n k; simpl; [reflexivity|].
  destruct n; destruct k; simpl; auto.
Qed.

Lemma consume_keeps_inv o ys h c x : last_in_cycle o h = false -> cache_inv o ys c ->
  cache_inv o (consume o ys h c x) c.
Proof.
  intros Hl Hinv Hw. specialize (Hinv Hw). destruct (c_burned c) eqn:Eb; [exact Hinv|].
  unfold consume. rewrite Eb. destruct (c_year c <? 0); [exact Hinv|].
  unfold year_left, nthZ in *. rewrite nth_upd_year_till; [exact Hinv|].
  intros y. rewrite Hl. reflexivity.
Qed.

Lemma pull_hyp_next o ys h c x : cache_inv o ys c ->
  cache_inv o (consume o ys h c x) c \/ first_in_cycle o (h + 1) = true.
Proof.
  intros Hinv. destruct (last_in_cycle o h) eqn:El.
  - right. unfold first_in_cycle. rewrite Z.add_simpl_r. exact El.
  - left. apply consume_keeps_inv; assumption.
Qed.

Lemma wrap64_small z : 0 <= z < 2^63 -> wrap64 z = z.
Proof.
  unfold wrap64. change (2^64) with (2 * 2^63). generalize (2^63). intros M H.
  rewrite Z.mod_small; lia.
Qed.

(* only the years that are still more than the window away from their close enter the forecast;
   for them the product secsToClose * cycle has to fit int64 *)
Lemma more_blocks_pos o secs tend ys i n y :
  0 < secs -> 0 < o_cycle o -> 0 <= o_window o ->
  Forall (fun yr => let d := dur_secs (y_close yr - tend) in o_window o <= d -> d * o_cycle o < 2^63) ys ->
  more_blocks o secs tend ys i = (n, y) -> 0 <= n.
Proof.
  intros Hs Hc Hw Hall. revert i. induction Hall as [|yr r Hyr Hr IH]; simpl; intros i H.
  - injection H as <- <-. lia.
  - destruct (Z.leb_spec (o_window o) (dur_secs (y_close yr - tend))) as [Hd|]; [|eauto].
    assert (0 <= dur_secs (y_close yr - tend) * o_cycle o) by nia.
    rewrite wrap64_small in H by auto. unfold f2i in H.
    destruct (Z.eqb_spec secs 0); [lia|].
    destruct (Z.quot (dur_secs (y_close yr - tend) * o_cycle o) secs =? 0); [eauto|].
    injection H as <- <-. apply Z.quot_pos; lia.
Qed.

Lemma pull_nonneg o bt ys h pool c a c' :
  0 < o_cycle o -> 0 <= o_window o -> 0 <= o_burnout o -> 0 <= pool ->
  Forall (fun yr => let d := dur_secs (y_close yr - snd (secs_per_cycle o bt h)) in
                    o_window o <= d -> d * o_cycle o < 2^63) ys ->
  (warm c = true -> 0 <= c_amt c) ->
  pull o bt ys h pool c = (COk a, c') -> 0 <= a /\ 0 <= c_amt c'.
Proof.
  intros Hc Hw Hb Hp Hall Hcache. unfold pull.
  destruct (calculate o bt ys h c) as [[a1|] c1] eqn:E; [|discriminate]. intros [= <- <-].
  enough (Ha : 0 <= c_amt c1 /\ c_amt c1 = a1).
  { destruct Ha as [Ha <-]. split; [destruct (_ && _); lia|exact Ha]. }
  destruct (calculate_cases o bt ys h c) as [E'|(Hwm & _ & E')]; rewrite E' in E.
  2:{ injection E as <- <-. auto. }
  split; [|apply (recompute_spec _ _ _ _ _ _ _ E)]. revert E. unfold recompute.
  destruct (more_blocks o _ _ ys 0) as [n y] eqn:Enb.
  pose proof (more_blocks_pos _ _ _ _ _ _ _ (secs_pos o bt h) Hc Hw Hall Enb). cbn [fst snd].
  destruct (Z.eqb_spec n 0); [intros [= _ <-]; exact Hb|].
  destruct (_ <? 0) eqn:El; [discriminate|]. apply Z.ltb_ge in El. intros [= _ <-]. apply ediv_nonneg; lia.
Qed.

Lemma more_blocks_sched o secs tend ys i :
  more_blocks o secs tend (sched ys) i = more_blocks o secs tend ys i.
Proof. revert i. induction ys as [|y r IH]; simpl; intros i; [reflexivity|]. rewrite !IH. reflexivity. Qed.

Lemma nthZ_sched_till ys i :
  y_till (nthZ (sched ys) i (mkYear 0 0 0)) = y_till (nthZ ys i (mkYear 0 0 0)).
Proof.
  unfold nthZ, sched.
  change (mkYear 0 0 0) with ((fun y => mkYear (y_close y) 0 (y_till y)) (mkYear 0 0 0)) at 1.
  rewrite map_nth. reflexivity.
Qed.

Lemma recompute_sched o bt ys h c : recompute o bt (sched ys) h c = recompute o bt ys h c.
Proof.
  unfold recompute. cbv zeta. rewrite more_blocks_sched.
  set (nb := more_blocks o _ _ ys 0). clearbody nb. rewrite nthZ_sched_till. reflexivity.
Qed.

Lemma past_first_cycle o h : 0 < o_cycle o -> (o_cycle o <? h) = (1 <? cycle_no o h).
Proof.
  intros HC. unfold cycle_no.
  pose proof (Z.div_le_lower_bound (h - 1) (o_cycle o) 1 HC).
  pose proof (Z.div_lt_upper_bound (h - 1) (o_cycle o) 1 HC).
  destruct (Z.ltb_spec (o_cycle o) h), (Z.ltb_spec 1 ((h - 1) / o_cycle o + 1)); lia.
Qed.

Lemma secs_per_cycle_same o bt h h' : 0 < o_cycle o -> cycle_no o h = cycle_no o h' ->
  secs_per_cycle o bt h = secs_per_cycle o bt h'.
Proof.
  intros HC E. unfold secs_per_cycle. rewrite !past_first_cycle, E by exact HC.
  replace (cycle_end o h) with (cycle_end o h'); [reflexivity|].
  unfold cycle_end, cycle_no in *. replace ((h - 1) / o_cycle o) with ((h' - 1) / o_cycle o) by lia.
  reflexivity.
Qed.

Lemma recompute_same_cycle o bt ys h h' c : 0 < o_cycle o -> cycle_no o h = cycle_no o h' ->
  recompute o bt ys h c = recompute o bt ys h' c.
Proof. intros HC E. unfold recompute. rewrite (secs_per_cycle_same o bt h h' HC E), E. reflexivity. Qed.

Lemma restart_independent o bt ys ys' h0 h c0 :
  0 < o_cycle o -> first_in_cycle o h0 = true -> cycle_no o h = cycle_no o h0 ->
  sched ys' = sched ys ->
  let res := calculate o bt ys h0 c0 in
  calculate o bt ys' h (snd res) = res /\ calculate o bt ys' h cold = res.
Proof.
  intros HC Hf Hcn Hsch res.
  assert (Hres : recompute o bt ys h0 cold = res).
  { unfold res. destruct (calculate_cases o bt ys h0 c0) as [E|(_ & Hf' & _)]; [|congruence].
    symmetry. exact E. }
  assert (Hany : forall c, recompute o bt ys' h c = res).
  { intros c. rewrite <- Hres, (recompute_indep o bt ys h0 cold c).
    rewrite <- (recompute_sched o bt ys'), Hsch, recompute_sched.
    apply recompute_same_cycle; assumption. }
  split; [|apply Hany].
  (* either Calculate recalculates, which gives the result of h0 again, or it answers from a warm
     cache, which then is the one h0 left *)
  destruct (calculate_cases o bt ys' h (snd res)) as [E|(Hw & _ & E)]; rewrite E; [apply Hany|].
  clearbody res. destruct res as [[a|] c1]; apply recompute_spec in Hres; cbn [snd] in *.
  - destruct Hres as [<- _]. reflexivity.
  - subst c1. discriminate Hw.
Qed.

Lemma chunk_idx_default o h : 0 < o_interval o -> 0 <= h -> chunk_idx o [] h = h / o_interval o + 1.
Proof.
  intros Hi Hh. unfold chunk_idx, get_interval. simpl. rewrite Z.sub_0_r.
  rewrite Z.quot_div_nonneg by lia. lia.
Qed.

Lemma chunk_idx_imported o c h : 0 < o_interval o -> 2 <= h ->
  chunk_idx o (load_intervals (mkIvl c 2)) h = c + (h - 2) / o_interval o + 1.
Proof.
  intros Hi Hh. unfold chunk_idx, load_intervals, get_interval. cbn.
  rewrite (proj2 (Z.leb_le 2 h) Hh). cbn. rewrite Z.quot_div_nonneg by lia. reflexivity.
Qed.
