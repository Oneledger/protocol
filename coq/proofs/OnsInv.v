(* OnsInv.v — "every sub-name belongs to its parent's owner" and "a sub-name expires with its
   parent": preserved by every transaction outside the trigger
   C20.purchase_misses_uncommitted_sub (refuted inside it: props/C20.v). *)
From Coq Require Import ZArith Ascii String Lia.
From stdpp Require Import gmap list strings.
From OL Require Import theories.Ons theories.OnsCheck proofs.OnsProofs.
Local Open Scope Z_scope.

Definition names_wf (r : gmap name domain) : Prop :=
  forall (n : name) d, r !! n = Some d -> (2 <= length n)%nat.
Definition subs_owned (r : gmap name domain) : Prop :=
  forall (n : name) d, r !! n = Some d -> is_sub n = true ->
    exists p, r !! parent_name n = Some p /\ d_owner p = d_owner d.
Definition sub_owner_inv (s : state) : Prop := names_wf (reg s) /\ subs_owned (reg s).

Definition subs_expire (r : gmap name domain) : Prop :=
  forall (n : name) d, r !! n = Some d -> is_sub n = true ->
    exists p, r !! parent_name n = Some p /\ d_expiry p = d_expiry d.
Definition sub_expiry_eq_inv (s : state) : Prop := names_wf (reg s) /\ subs_expire (reg s).

(* Both are [subs_agree f (reg s)], for f = d_owner and f = d_expiry (by unfolding). *)
Definition subs_agree {A} (f : domain -> A) (r : gmap name domain) : Prop :=
  names_wf r /\ forall (n : name) d, r !! n = Some d -> is_sub n = true ->
    exists p, r !! parent_name n = Some p /\ f p = f d.

Lemma name_valid_len o n : name_valid o n = true -> (2 <= length n)%nat.
Proof.
  unfold name_valid, name_syntax_ok. rewrite <- (reverse_length n).
  destruct (reverse n) as [|tld rest]; [done|].
  intros [[[[H%Nat.leb_le _]%andb_true_iff _]%andb_true_iff _]%andb_true_iff _]%andb_true_iff.
  simpl. lia.
Qed.

Lemma parent_not_sub n : (2 <= length n)%nat -> is_sub (parent_name n) = false.
Proof. intros H. unfold is_sub, parent_name. rewrite drop_length. apply Nat.leb_gt. lia. Qed.

Section subs_agree.
Context {A} (f : domain -> A).

Lemma subs_agree_preserved (r r1 : gmap name domain) :
  (forall n, f <$> r1 !! n = f <$> r !! n) -> subs_agree f r -> subs_agree f r1.
Proof.
  intros Hf [Hwf Hag].
  assert (forall n d1, r1 !! n = Some d1 -> exists d, r !! n = Some d /\ f d1 = f d) as Hold.
  { intros n d1 H1. apply fmap_Some. by rewrite <- Hf, H1. }
  split.
  - intros n d1 (d & Hd & _)%Hold. by eapply Hwf.
  - intros n d1 (d & Hd & Hfd)%Hold Hs. destruct (Hag n d Hd Hs) as (p & Hp & Hfp).
    pose proof (Hf (parent_name n)) as E. rewrite Hp in E.
    apply fmap_Some in E as (p1 & Hp1 & Hfp1). exists p1. split; [done|congruence].
Qed.

Lemma insert_keeps (r r' : gmap name domain) (n : name) d d' :
  r !! n = Some d -> f d' = f d -> (forall m, f <$> r' !! m = f <$> r !! m) ->
  forall m, f <$> <[n:=d']> r' !! m = f <$> r !! m.
Proof.
  intros Hd Hf Hr m. destruct (decide (m = n)) as [->|].
  - rewrite lookup_insert, Hd. simpl. by rewrite Hf.
  - by rewrite lookup_insert_ne.
Qed.

Lemma map_subs_keeps (s : state) (p : name) (h : domain -> domain) (r : gmap name domain) :
  (forall d, f (h d) = f d) -> forall m, f <$> map_subs s p h r !! m = f <$> r !! m.
Proof.
  intros Hh m. rewrite lookup_map_subs. destruct (visited s p m), (r !! m); simpl; by rewrite ?Hh.
Qed.

Lemma subs_agree_remove (r r1 : gmap name domain) :
  (forall n, r1 !! n = r !! n \/ r1 !! n = None /\ is_sub n = true) ->
  subs_agree f r -> subs_agree f r1.
Proof.
  intros Hd [Hwf Hag]. split.
  - intros n d H1. destruct (Hd n) as [He|[He _]]; rewrite He in H1; [by eapply Hwf|done].
  - intros n d H1 Hs. destruct (Hd n) as [He|[He _]]; rewrite He in H1; [|done].
    destruct (Hag n d H1 Hs) as (p & Hp & Hfp). exists p. split; [|done].
    destruct (Hd (parent_name n)) as [->|[_ Hps]]; [done|].
    rewrite parent_not_sub in Hps; [done|by eapply Hwf].
Qed.

Lemma subs_agree_insert_fresh (r : gmap name domain) (n : name) d :
  r !! n = None -> (2 <= length n)%nat ->
  (is_sub n = true -> exists p, r !! parent_name n = Some p /\ f p = f d) ->
  subs_agree f r -> subs_agree f (<[n:=d]> r).
Proof.
  intros Hn Hl Hp [Hwf Hag]. split.
  - intros n' d' [[<- _]|[_ H']]%lookup_insert_Some; [done|by eapply Hwf].
  - intros n' d' H' Hs.
    assert (exists p, r !! parent_name n' = Some p /\ f p = f d') as (p & Hpn & Hfp).
    { apply lookup_insert_Some in H' as [[<- <-]|[_ H']]; eauto. }
    exists p. split; [|done]. rewrite lookup_insert_ne; [done|congruence].
Qed.

(* n0 gets a new record while the iteration over its sub-names deletes them or gives them the new
   record's f.  The iteration sees the committed sub-names only: all of them, by the third
   hypothesis. *)
Lemma subs_agree_family (s : state) (n0 : name) (d0 d' : domain) (r' : gmap name domain) :
  subs_agree f (reg s) -> reg s !! n0 = Some d0 -> is_sub n0 = false ->
  (forall n d, reg s !! n = Some d -> is_sub_of n0 n = true -> visited s n0 n = true) ->
  (forall n, if visited s n0 n then forall d1, r' !! n = Some d1 -> f d1 = f d'
             else r' !! n = reg s !! n) ->
  subs_agree f (<[n0:=d']> r').
Proof.
  intros [Hwf Hag] H0 Hs0 Hall Hr'.
  assert (length n0 = 2%nat) as Hlen.
  { apply Hwf in H0. apply Nat.leb_gt in Hs0. lia. }
  assert (forall n, visited s n0 n = true -> parent_name n = n0 /\ is_sub n = true) as Hpar.
  { intros n Hv%visited_sub. by apply is_sub_of_parent. }
  split.
  - intros n d1 [[<- _]|[_ H1]]%lookup_insert_Some; [lia|].
    specialize (Hr' n). destruct (visited s n0 n) eqn:Hv.
    + apply Hpar in Hv as [_ Hv%Nat.leb_le]. lia.
    + rewrite Hr' in H1. by eapply Hwf.
  - intros n d1 [[<- _]|[_ H1]]%lookup_insert_Some Hs; [congruence|].
    pose proof (Hr' n) as Hn. destruct (visited s n0 n) eqn:Hv.
    + apply Hpar in Hv as [-> _]. exists d'. rewrite lookup_insert. split; [done|]. symmetry; eauto.
    + rewrite Hn in H1. destruct (Hag n d1 H1 Hs) as (p & Hp & Hfp). exists p. split; [|done].
      rewrite lookup_insert_ne.
      * specialize (Hr' (parent_name n)). destruct (visited s n0 (parent_name n)) eqn:Hvp; [|congruence].
        apply Hpar in Hvp as [_ Hvp]. rewrite parent_not_sub in Hvp; [done|by eapply Hwf].
      * intros ->. apply parent_is_sub_of in Hs. rewrite (Hall n d1) in Hv; done.
Qed.
End subs_agree.

(* the first hypothesis is [trig_purchase_uncommitted] or [trig_uncommitted], off, at a purchase or
   renewal of p (by unfolding) *)
Lemma all_subs_visited s p n d :
  existsb (fun n0 => is_sub_of p n0 && negb (bool_decide (n0 ∈ snap s)))
          (map fst (map_to_list (reg s))) = false ->
  reg s !! n = Some d -> is_sub_of p n = true -> visited s p n = true.
Proof.
  unfold visited. intros Ht Hn Hs. rewrite Hs. simpl.
  destruct (bool_decide (n ∈ snap s)) eqn:Hin; [done|].
  rewrite <- Ht. apply existsb_exists. exists n. split; [|by rewrite Hs, Hin].
  apply elem_of_list_In, elem_of_list_fmap. exists (n, d). by rewrite elem_of_map_to_list.
Qed.

Lemma trig_uncommitted_purchase s o :
  trig_uncommitted s o = false -> trig_purchase_uncommitted s o = false.
Proof. by destruct o. Qed.

Lemma run_op_subs_agree {A} (f : domain -> A) e s o s1 :
  (forall d d', d_owner d' = d_owner d -> d_expiry d' = d_expiry d -> f d' = f d) ->
  run_op e s o = Some s1 -> trig_purchase_uncommitted s o = false -> subs_agree f (reg s) ->
  (forall a n p, o = Renew a n p -> subs_agree f (reg s1)) -> subs_agree f (reg s1).
Proof.
  intros Hf H%run_op_Some Ht Hinv Hrenew.
  destruct o as [a b n0 uo u p|a b n0 act uo u|a n0 p c|a b n0 p|a n0 p|a n0 p|a n0].
  - (* Create *) destruct H as [b1 x _ Hnone _ Hlen%name_valid_len Hx].
    apply subs_agree_insert_fresh; [done|done| |done].
    intros Hs. rewrite Hs in Hx. destruct Hx as (q & Hq & Ho & ->). exists q. split; [done|].
    symmetry. by apply Hf.
  - (* Update *) destruct H as [d Hd _]. eapply subs_agree_preserved; [|done].
    apply (insert_keeps f _ _ _ d); [done|by apply Hf|].
    destruct (negb act && negb (is_sub n0)); [|done]. apply map_subs_keeps. intros. by apply Hf.
  - (* Sell *) destruct H as [d Hd _]. eapply subs_agree_preserved; [|done].
    apply (insert_keeps f _ _ _ d); [done|by destruct c; apply Hf|done].
  - (* Purchase *) destruct H as [d b2 rm ext b3 Hd Hs _ _ _].
    eapply subs_agree_family; eauto using all_subs_visited.
    intros n. rewrite lookup_delete_subs. by destruct (visited s n0 n).
  - (* Send *) by destruct H.
  - (* Renew moves the expiry of a whole family and leaves its owners alone: not generic in f,
       so left to the caller *)
    eauto.
  - (* DeleteSub *) eapply subs_agree_remove; [|done]. intros n.
    destruct H as [q Hs _ _|q Hs Hq _]; simpl.
    + destruct (decide (n = n0)) as [->|]; [right; by rewrite lookup_delete|left; by rewrite lookup_delete_ne].
    + rewrite lookup_delete_subs. destruct (visited s n0 n) eqn:Hv; [right|by left].
      split; [done|]. apply visited_sub in Hv. eapply is_sub_of_is_sub; [|done]. by eapply Hinv.
Qed.

Lemma run_op_sub_owner_inv e s o s1 : run_op e s o = Some s1 ->
  trig_purchase_uncommitted s o = false -> sub_owner_inv s -> sub_owner_inv s1.
Proof.
  intros H Ht Hinv. apply (run_op_subs_agree d_owner e s o); [auto|done..|]. intros a n p ->.
  apply run_renew_Some in H. destruct H as [d b1 ext Hd _ _ _ _ _ _ _].
  eapply (subs_agree_preserved d_owner); [|exact Hinv].
  apply (insert_keeps d_owner _ _ _ d); [done..|]. by apply map_subs_keeps.
Qed.

Lemma run_op_sub_expiry_inv e s o s1 : run_op e s o = Some s1 ->
  trig_uncommitted s o = false -> sub_expiry_eq_inv s -> sub_expiry_eq_inv s1.
Proof.
  intros H Ht Hinv.
  apply (run_op_subs_agree d_expiry e s o); [auto|done|by apply trig_uncommitted_purchase|done|].
  (* renewal: the parent and every committed sub-name get the same new expiry; outside the trigger
     there is no other sub-name *)
  intros a n p ->. apply run_renew_Some in H. destruct H as [d b1 ext Hd _ Hs _ _ _ _ _].
  eapply (subs_agree_family d_expiry); eauto using all_subs_visited.
  intros m. rewrite lookup_map_subs. destruct (visited s n m); [|done].
  intros d1. by destruct (reg s !! m); intros [= <-].
Qed.

Fixpoint no_trigger (s : state) (evs : list event) : Prop :=
  match evs with
  | [] => True
  | Tx t :: rest => trig_purchase_uncommitted s (t_op t) = false /\ no_trigger (deliver s t).1 rest
  | EndBlock :: rest => no_trigger (end_block s) rest
  end.

Fixpoint no_trigger_u (s : state) (evs : list event) : Prop :=
  match evs with
  | [] => True
  | Tx t :: rest => trig_uncommitted s (t_op t) = false /\ no_trigger_u (deliver s t).1 rest
  | EndBlock :: rest => no_trigger_u (end_block s) rest
  end.

(* [no_trigger] and [no_trigger_u] are [no_trig] at the two triggers (by unfolding) *)
Section guarded.
Context (trig : state -> op -> bool) (P : gmap name domain -> Prop).
Context (Hop : forall e s o s1, run_op e s o = Some s1 -> trig s o = false -> P (reg s) -> P (reg s1)).

Fixpoint no_trig (s : state) (evs : list event) : Prop :=
  match evs with
  | [] => True
  | Tx t :: rest => trig s (t_op t) = false /\ no_trig (deliver s t).1 rest
  | EndBlock :: rest => no_trig (end_block s) rest
  end.

Lemma deliver_guarded s t : trig s (t_op t) = false -> P (reg s) -> P (reg (deliver s t).1).
Proof.
  intros Ht Hinv. apply (deliver_cases s t); simpl; [done|]. intros s1 s2 H _ ->. by eapply Hop.
Qed.

Lemma history_guarded evs : forall s, P (reg s) -> no_trig s evs -> P (reg (run s evs)).
Proof.
  induction evs as [|[t|] evs IH]; intros s Hinv Hnt; simpl in *; [done|..].
  - destruct Hnt as [Ht Hnt]. apply IH; [by apply deliver_guarded|done].
  - by apply IH.
Qed.
End guarded.

Lemma init_subs_agree {A} (f : domain -> A) b : subs_agree f (reg (init_state b)).
Proof. split; intros n d H; simpl in H; by rewrite lookup_empty in H. Qed.
