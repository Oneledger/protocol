(* The handlers of theories/Stake.v do nothing or, under the conditions listed in [*_cases], one of the four updates
   [after_*]; the three invariants behind property C11 ([sums_ok], [conserved], [rec_inv]) are shown update by update. *)
From stdpp Require Import gmap list.
Require Import ZArith Lia.
From OL Require Import theories.Stake.
Open Scope Z_scope.

Section msum.
  Context {K A : Type} `{Countable K}.
  Variable w : K -> A -> Z.

  Lemma msum_empty : msum w (∅ : gmap K A) = 0.
  Proof. apply map_fold_empty. Qed.

  Lemma msum_insert_fresh (m : gmap K A) k x :
    m !! k = None -> msum w (<[k := x]> m) = w k x + msum w m.
  Proof. apply (map_fold_insert_L (fun k x acc => w k x + acc)). intros. lia. Qed.

  Lemma msum_delete (m : gmap K A) k y : m !! k = Some y -> msum w m = w k y + msum w (delete k m).
  Proof.
    intros E. rewrite <- (msum_insert_fresh (delete k m) k y) by apply lookup_delete.
    rewrite insert_delete by exact E. reflexivity.
  Qed.

  Lemma msum_insert (m : gmap K A) k x :
    msum w (<[k := x]> m) = msum w m + w k x - from_option (w k) 0 (m !! k).
  Proof.
    destruct (m !! k) as [y|] eqn:E; simpl.
    - rewrite <- insert_delete_insert, msum_insert_fresh, (msum_delete m k y E) by apply lookup_delete. lia.
    - rewrite msum_insert_fresh by exact E. lia.
  Qed.

  Lemma msum_nonneg (m : gmap K A) : map_Forall (fun k x => 0 <= w k x) m -> 0 <= msum w m.
  Proof.
    induction m as [|k x m Hk IH] using map_ind; intros Hall.
    - rewrite msum_empty. lia.
    - apply map_Forall_insert in Hall as [Hx Hm]; [|exact Hk].
      rewrite msum_insert_fresh by exact Hk. specialize (IH Hm). lia.
  Qed.
End msum.

Lemma zget_zadd (m : gmap addr Z) k z k' : zget (zadd k z m) k' = zget m k' + (if Pos.eqb k k' then z else 0).
Proof.
  unfold zadd, zget at 1. destruct (Pos.eqb_spec k k') as [->|Hne].
  - rewrite lookup_insert. reflexivity.
  - rewrite lookup_insert_ne by exact Hne. symmetry. apply Z.add_0_r.
Qed.

Lemma msum_zadd {K} `{Countable K} (P : K -> bool) (m : gmap K Z) k a :
  msum (fun k x => if P k then x else 0) (zadd k a m) = msum (fun k x => if P k then x else 0) m + (if P k then a else 0).
Proof. unfold zadd, zget. rewrite msum_insert. destruct (m !! k); simpl; destruct (P k); lia. Qed.

Lemma entries_of_app l d a d' :
  entries_of (l ++ [(d, a)]) d' = entries_of l d' + (if Pos.eqb d d' then a else 0).
Proof.
  induction l as [|[ed ea] l IH]; simpl.
  - destruct (Pos.eqb d d'); lia.
  - rewrite IH. destruct (Pos.eqb ed d'); lia.
Qed.

Definition entries_nonneg : list (addr * Z) -> Prop := Forall (fun e => 0 <= e.2).

Lemma entries_of_nonneg l d : entries_nonneg l -> 0 <= entries_of l d.
Proof. induction 1 as [|[ed ea] l He Hl IH]; simpl in *; [lia|]. destruct (Pos.eqb ed d); lia. Qed.

Lemma maturing_insert (m : gmap Z (list (addr * Z))) k l d :
  msum (fun (_ : Z) l => entries_of l d) (<[k := l]> m)
  = msum (fun (_ : Z) l => entries_of l d) m + entries_of l d - entries_of (default [] (m !! k)) d.
Proof. rewrite msum_insert. destruct (m !! k); reflexivity. Qed.

Lemma credit_sum es b d : zget (foldr credit_entry b es) d = zget b d + entries_of es d.
Proof.
  induction es as [|[ed ea] es IH]; simpl; [lia|]. unfold credit_entry at 1. simpl. destruct (Z.eqb_spec ea 0) as [->|_].
  - rewrite IH. destruct (Pos.eqb ed d); lia.
  - rewrite zget_zadd, IH. destruct (Pos.eqb ed d); lia.
Qed.

Lemma amount_ok_range a : amount_ok a = true -> 0 <= a < 2 ^ 63.
Proof. unfold amount_ok. lia. Qed.

Lemma wrap64_amount_ok a : amount_ok a = true -> wrap64 a = a.
Proof.
  intros Ha%amount_ok_range. unfold wrap64. change (2 ^ 64) with (2 * 2 ^ 63).
  revert Ha. generalize (2 ^ 63). intros M Ha. rewrite Z.mod_small; lia.
Qed.

Lemma debit_of_small a : amount_ok a = true -> debit_of a = a * base.
Proof. intros Ha. unfold debit_of. rewrite wrap64_amount_ok by exact Ha. reflexivity. Qed.

Lemma penalty_amount_nonneg t pct dec : 0 <= t -> 0 <= pct -> 0 < dec -> 0 <= penalty_amount t pct dec.
Proof. intros. unfold penalty_amount. apply Z.quot_pos; nia. Qed.

Lemma penalty_amount_zero pct dec : 0 < dec -> penalty_amount 0 pct dec = 0.
Proof. intros. unfold penalty_amount. apply Z.quot_small. lia. Qed.

Definition after_stake (s : state) (v d : addr) (a : Z) (u : bool) (c : Z) : state :=
  State (zadd (v, d) a (eff s)) (zadd v a (vtot s)) (zadd d a (deff s)) (dbnd s) (mat s)
        (<[v := stake_rec s v d a u]> (vrecs s)) (vprev s) (pend s)
        (zadd d a (g_staked s)) (g_withdrawn s) (g_pen s) (zadd d c (g_in s)) (g_out s).
Definition after_unstake (s : state) (v d : addr) (a : Z) (r : vrec) (k : Z) : state :=
  State (zadd (v, d) (- a) (eff s)) (zadd v (- a) (vtot s)) (zadd d (- a) (deff s)) (dbnd s)
        (<[k := mat_at s k ++ [(d, a)]]> (mat s))
        (<[v := VRec (vr_saddr r) (vr_staking r - a) (wrap64 (vr_staking r - a))]> (vrecs s)) (vprev s) (pend s)
        (g_staked s) (g_withdrawn s) (g_pen s) (g_in s) (g_out s).
Definition after_withdraw (s : state) (d : addr) (a c : Z) : state :=
  State (eff s) (vtot s) (deff s) (zadd d (- a) (dbnd s)) (mat s) (vrecs s) (vprev s) (pend s)
        (g_staked s) (zadd d a (g_withdrawn s)) (g_pen s) (g_in s) (zadd d c (g_out s)).
Definition after_penalty (s : state) (v d : addr) (p : Z) : state :=
  State (zadd (v, d) (- p) (eff s)) (zadd v (- p) (vtot s)) (zadd d (- p) (deff s)) (dbnd s) (mat s)
        (vrecs s) (vprev s) ((v, p) :: pend s) (g_staked s) (g_withdrawn s) (zadd d p (g_pen s)) (g_in s) (g_out s).

Lemma minus3_cases s v d a :
  minus3 s v d a = (s, 0%nat) \/
  0 <= zget (vtot s) v - a /\ 0 <= zget (deff s) d - a /\ minus3 s v d a = (add3 s v d (- a), 3%nat).
Proof. unfold minus3. destruct (_ || _ || _) eqn:E; [left; reflexivity|right]. repeat split; lia. Qed.

Lemma do_stake_cases s v d a fz bal h m pb ff :
  do_stake s v d a fz bal h m pb ff = (s, false) \/
  fz = false /\ amount_ok a = true /\ exists u, do_stake s v d a fz bal h m pb ff = (after_stake s v d a u (debit_of a), true).
Proof.
  (* here and in the next two proofs the handler's value is named first, so that the case analysis of its guards
     carries its body once and not also in the conclusion *)
  remember (do_stake s v d a fz bal h m pb ff) as X eqn:E. revert E. unfold do_stake.
  destruct (validate_stake a bal); [|auto]. destruct (amount_ok a); [|auto]. destruct fz; [auto|].
  destruct (stake_update s v d h m) as [u|]; [|auto]. destruct (_ <? 0); [auto|]. destruct pb; [auto|].
  destruct ff; [auto|]. intros E. right. repeat split. exists u. exact E.
Qed.

Lemma do_unstake_cases s v d a fz ro h m pb ff :
  do_unstake s v d a fz ro h m pb ff = (s, false) \/
  fz = false /\ amount_ok a = true /\ 0 <= zget (vtot s) v - a /\ 0 <= zget (deff s) d - a /\
  exists r, vrecs s !! v = Some r /\ do_unstake s v d a fz ro h m pb ff = (after_unstake s v d a r (h + m), true).
Proof.
  remember (do_unstake s v d a fz ro h m pb ff) as X eqn:E. revert E. unfold do_unstake.
  destruct (validate_unstake s v d a); [|auto]. destruct (amount_ok a); [|auto]. destruct fz; [auto|].
  destruct ro; [auto|]. destruct (minus3_cases s v d a) as [->|(Hv & Hd & ->)]; [auto|].
  destruct (vrecs s !! v) as [r|]; [|auto]. destruct (_ <? 0); [auto|]. destruct pb; [auto|].
  destruct ff; [auto|]. intros E. right. repeat split; try assumption. exists r. split; [reflexivity|exact E].
Qed.

Lemma do_withdraw_cases s v d a fz ff :
  do_withdraw s v d a fz ff = (s, false) \/
  fz = false /\ amount_ok a = true /\ 0 <= zget (dbnd s) d - a /\
  do_withdraw s v d a fz ff = (after_withdraw s d a (debit_of a), true).
Proof.
  remember (do_withdraw s v d a fz ff) as X eqn:E. revert E. unfold do_withdraw.
  destruct (validate_unstake s v d a); [|auto]. destruct (amount_ok a); [|auto]. destruct fz; [auto|].
  destruct (_ <? 0) eqn:Hb; [auto|]. destruct ff; [auto|]. intros E. right. repeat split; [lia|exact E].
Qed.

Lemma verdict_cases s v pct dec :
  verdict s (v, pct, dec) = s \/
  exists d p, p = penalty_amount (zget (vtot s) v) pct dec /\ 0 <= zget (vtot s) v - p /\ 0 <= zget (deff s) d - p /\
              verdict s (v, pct, dec) = after_penalty s v d p.
Proof.
  unfold verdict. destruct (vprev s !! v) as [r|]; [|auto].
  destruct (minus3_cases s v (vr_saddr r) (penalty_amount (zget (vtot s) v) pct dec)) as [->|(Hv & Hd & ->)].
  - left. destruct s; reflexivity.
  - right. exists (vr_saddr r). eauto.
Qed.

Lemma do_genstake_eq s v d a : do_genstake s v d a = snapshot (after_stake s v d a false (a * base)).
Proof. reflexivity. Qed.

(* hence [trig_penalty_not_atomic] (the former defect C11.penalty_not_atomic) never fires *)
Lemma verdicts_atomic_true vs : forall s, verdicts_atomic s vs = true.
Proof.
  induction vs as [|[[v pct] dec] vs IH]; intros s; [reflexivity|]. cbn [verdicts_atomic]. rewrite IH, andb_true_r.
  unfold verdict_atomic. destruct (vprev s !! v) as [r|]; [|reflexivity].
  edestruct minus3_cases as [->|(_ & _ & ->)]; reflexivity.
Qed.

Definition sums_ok (s : state) : Prop :=
  (forall v, zget (vtot s) v = esum_v s v) /\ (forall d, zget (deff s) d = esum_d s d).

Lemma sums_ok_add3 s v d a : sums_ok s -> sums_ok (add3 s v d a).
Proof.
  intros [Hv Hd]. split; intros x; unfold esum_v, esum_d; simpl; rewrite zget_zadd, msum_zadd; simpl.
  - rewrite Hv. reflexivity.
  - rewrite Hd. reflexivity.
Qed.

Lemma sums_ok_verdicts vs : forall s, sums_ok s -> sums_ok (fold_left verdict vs s).
Proof.
  induction vs as [|[[v pct] dec] vs IH]; intros s Hs; [exact Hs|]. cbn [fold_left]. apply IH.
  destruct (verdict_cases s v pct dec) as [->|(d & p & _ & _ & _ & ->)]; [exact Hs|]. exact (sums_ok_add3 s v d (- p) Hs).
Qed.

Lemma sums_ok_step s o : sums_ok s -> sums_ok (fst (step s o)).
Proof.
  intros Hs. destruct o; simpl.
  - edestruct do_stake_cases as [->|(_ & _ & u & ->)]; [exact Hs|]. apply sums_ok_add3, Hs.
  - edestruct do_unstake_cases as [->|(_ & _ & _ & _ & r & _ & ->)]; [exact Hs|]. apply sums_ok_add3, Hs.
  - (* each of the three invariants reads some fields of the state only; an update that leaves those alone
       preserves it by conversion *)
    edestruct do_withdraw_cases as [->|(_ & _ & _ & ->)]; exact Hs.
  - exact Hs.
  - unfold do_end. destruct (_ <=? 1); [exact Hs|].
    (* none of the invariants reads [vprev], which is all [snapshot] writes *)
    change (sums_ok (snapshot ?x)) with (sums_ok x).
    apply sums_ok_verdicts. exact Hs.
  - apply sums_ok_add3, Hs.
  - exact Hs.
Qed.

Lemma sums_ok_run os : forall s, sums_ok s -> sums_ok (run s os).
Proof. induction os as [|o os IH]; intros s Hs; [exact Hs|]. apply IH, sums_ok_step, Hs. Qed.

Theorem validator_total os :
  let s := run empty_state os in
  (forall v, zget (vtot s) v = esum_v s v) /\ (forall d, zget (deff s) d = esum_d s d).
Proof.
  apply sums_ok_run. split; intros; unfold esum_v, esum_d; simpl; rewrite msum_empty; reflexivity.
Qed.

Definition conserved_at (s : state) (d : addr) : Prop :=
  zget (g_staked s) d - zget (g_pen s) d - zget (g_withdrawn s) d = zget (deff s) d + zget (dbnd s) d + maturing s d /\
  0 <= zget (deff s) d /\ 0 <= zget (dbnd s) d /\
  zget (g_in s) d = zget (g_staked s) d * base /\ zget (g_out s) d = zget (g_withdrawn s) d * base.
Definition conserved (s : state) : Prop := (forall d, conserved_at s d) /\ map_Forall (fun _ => entries_nonneg) (mat s).

Lemma mat_at_nonneg s h : conserved s -> entries_nonneg (mat_at s h).
Proof. intros [_ Hm]. unfold mat_at. destruct (mat s !! h) as [l|] eqn:E; [exact (Hm h l E)|constructor]. Qed.

Lemma maturing_nonneg s d : conserved s -> 0 <= maturing s d.
Proof. intros [_ Hm]. apply msum_nonneg. intros k l E. apply entries_of_nonneg, (Hm k l E). Qed.

(* The goal [forall d', conserved_at s' d'] where [s'] is [s] with amounts of one delegator [d] changed,
   [H : forall d, conserved_at s d]: bring every number of [s'] to the form number of [s] + change, then split on
   [d = d']; [lia] is left with the linear facts about the amount. *)
Ltac at_delegator H d d' :=
  intros d'; specialize (H d'); unfold conserved_at, maturing in *; simpl; unfold mat_at;
  rewrite ?maturing_insert, ?entries_of_app, ?zget_zadd; destruct (Pos.eqb_spec d d') as [<-|_].

Lemma conserved_stake s v d a u : 0 <= a -> conserved s -> conserved (after_stake s v d a u (a * base)).
Proof. intros Ha [Hs Hm]. split; [|exact Hm]. at_delegator Hs d d'; lia. Qed.

Lemma conserved_entry s k d a : 0 <= a -> conserved s -> entries_nonneg (mat_at s k ++ [(d, a)]).
Proof. intros Ha Hs. apply Forall_app. split; [exact (mat_at_nonneg s k Hs)|]. repeat constructor. exact Ha. Qed.

Lemma conserved_unstake s v d a r k : 0 <= a -> 0 <= zget (deff s) d - a -> conserved s -> conserved (after_unstake s v d a r k).
Proof.
  intros Ha Hd Hs. pose proof (conserved_entry s k d a Ha Hs) as He. destruct Hs as [Hs Hm].
  split; [|exact (map_Forall_insert_2 _ _ _ _ He Hm)]. at_delegator Hs d d'; lia.
Qed.

Lemma conserved_withdraw s d a : 0 <= zget (dbnd s) d - a -> conserved s -> conserved (after_withdraw s d a (a * base)).
Proof. intros Hb [Hs Hm]. split; [|exact Hm]. at_delegator Hs d d'; lia. Qed.

Lemma conserved_penalty s v d p : 0 <= zget (deff s) d - p -> conserved s -> conserved (after_penalty s v d p).
Proof. intros Hd [Hs Hm]. split; [|exact Hm]. at_delegator Hs d d'; lia. Qed.

Lemma conserved_genmature s h d a : 0 <= a -> conserved s -> conserved (do_genmature s h d a).
Proof.
  intros Ha Hs. pose proof (conserved_entry s h d a Ha Hs) as He. destruct Hs as [Hs Hm].
  split; [|exact (map_Forall_insert_2 _ _ _ _ He Hm)]. at_delegator Hs d d'; lia.
Qed.

Lemma conserved_mature s h : conserved s -> conserved (mature s h).
Proof.
  intros Hs. pose proof (mat_at_nonneg s h Hs) as Hes. destruct Hs as [Hd Hm]. unfold mature, mat_at in *. split.
  - intros d. specialize (Hd d). pose proof (entries_of_nonneg _ d Hes). unfold conserved_at, maturing in *. simpl. rewrite credit_sum.
    destruct (default [] (mat s !! h)) eqn:E; [simpl; lia|]. rewrite maturing_insert, E. simpl (entries_of [] d). lia.
  - simpl. destruct (default [] (mat s !! h)); [exact Hm|]. apply map_Forall_insert_2; [constructor|exact Hm].
Qed.

Lemma conserved_verdicts vs : forall s, conserved s -> conserved (fold_left verdict vs s).
Proof.
  induction vs as [|[[v pct] dec] vs IH]; intros s Hs; [exact Hs|]. cbn [fold_left]. apply IH.
  destruct (verdict_cases s v pct dec) as [->|(d & p & _ & _ & Hd & ->)]; [exact Hs|]. exact (conserved_penalty s v d p Hd Hs).
Qed.

Definition gen_nonneg (o : op) : bool :=
  match o with OGenStake _ _ a | OGenMature _ _ a => 0 <=? a | _ => true end.

Lemma conserved_step s o : gen_nonneg o = true -> conserved s -> conserved (fst (step s o)).
Proof.
  intros Hg Hs. destruct o; simpl in *.
  - edestruct do_stake_cases as [->|(_ & Ha & u & ->)]; [exact Hs|].
    rewrite debit_of_small by exact Ha. apply amount_ok_range in Ha. apply conserved_stake; [lia|exact Hs].
  - edestruct do_unstake_cases as [->|(_ & Ha%amount_ok_range & _ & Hd & r & _ & ->)]; [exact Hs|].
    apply conserved_unstake; [lia|exact Hd|exact Hs].
  - edestruct do_withdraw_cases as [->|(_ & Ha & Hb & ->)]; [exact Hs|].
    rewrite debit_of_small by exact Ha. apply conserved_withdraw; [exact Hb|exact Hs].
  - exact Hs.
  - unfold do_end. destruct (_ <=? 1); [exact Hs|]. change (conserved (snapshot ?x)) with (conserved x).
    apply conserved_verdicts, conserved_mature. exact Hs.
  - rewrite do_genstake_eq. change (conserved (snapshot ?x)) with (conserved x). apply conserved_stake; [lia|exact Hs].
  - apply conserved_genmature; [lia|exact Hs].
Qed.

Lemma conserved_run os : forall s, forallb gen_nonneg os = true -> conserved s -> conserved (run s os).
Proof.
  induction os as [|o os IH]; intros s Hg Hs; [exact Hs|].
  apply andb_true_iff in Hg as [H1 H2]. apply IH; [exact H2|]. apply conserved_step; assumption.
Qed.

Lemma conserved_empty : conserved empty_state.
Proof.
  split; [|apply map_Forall_empty]. intros d. unfold conserved_at, maturing. simpl. rewrite msum_empty. repeat split; reflexivity.
Qed.

Definition rec_staking (s : state) (v : addr) : Z := match vrecs s !! v with Some r => vr_staking r | None => 0 end.
(* a record's stake reaching 2^63 whole OLT: calculatePower narrows to int64 *)
Definition stake_overflow (s : state) (o : op) : bool :=
  match o with
  | OStake v _ a _ _ _ _ _ _ | OGenStake v _ a => 2 ^ 63 <=? rec_staking s v + a
  | _ => false
  end.
(* evidence options: PenaltyBasePercentage >= 0, PenaltyBaseDecimals > 0 *)
Definition verdict_params_ok (o : op) : bool :=
  match o with OEnd _ vs => forallb (fun e => (0 <=? e.1.2) && (0 <? e.2)) vs | _ => true end.
Definition record_env_violated (s : state) (o : op) : bool :=
  negb (gen_nonneg o) || stake_overflow s o || negb (verdict_params_ok o).

Definition rec_ok (o : option vrec) (t p : Z) : Prop :=
  match o with
  | Some r => vr_staking r = t + p /\ vr_power r = wrap64 (vr_staking r) /\ vr_staking r < 2 ^ 63
  | None => t = 0 /\ p = 0
  end.
Definition rec_inv (s : state) : Prop :=
  (forall v, 0 <= zget (vtot s) v) /\ entries_nonneg (pend s) /\
  (forall v, rec_ok (vrecs s !! v) (zget (vtot s) v) (entries_of (pend s) v)).

Lemma rec_ok_power r t p : 0 <= t -> 0 <= p -> rec_ok (Some r) t p -> vr_power r = vr_staking r.
Proof. intros Ht Hp (E & -> & Hb). apply wrap64_amount_ok. unfold amount_ok. lia. Qed.

Lemma rec_inv_update s s' v r x :
  vtot s' = zadd v x (vtot s) -> pend s' = pend s -> vrecs s' = <[v := r]> (vrecs s) ->
  0 <= zget (vtot s) v + x -> rec_ok (Some r) (zget (vtot s) v + x) (entries_of (pend s) v) ->
  rec_inv s -> rec_inv s'.
Proof.
  intros E1 E2 E3 Hx Hr (H1 & H2 & H3). unfold rec_inv. rewrite E1, E2, E3. split; [|split; [exact H2|]].
  - intros v'. rewrite zget_zadd. destruct (Pos.eqb_spec v v') as [<-|]; [exact Hx|]. rewrite Z.add_0_r. apply H1.
  - intros v'. rewrite zget_zadd. destruct (Pos.eqb_spec v v') as [<-|Hne].
    + rewrite lookup_insert. exact Hr.
    + rewrite lookup_insert_ne, Z.add_0_r by exact Hne. apply H3.
Qed.

Lemma stake_rec_ok s v d a u t p :
  0 <= a -> rec_staking s v + a < 2 ^ 63 -> rec_ok (vrecs s !! v) t p -> rec_ok (Some (stake_rec s v d a u)) (t + a) p.
Proof. unfold rec_staking, stake_rec. destruct (vrecs s !! v) as [r|]; simpl; lia. Qed.

Lemma rec_inv_stake s v d a u c : 0 <= a -> rec_staking s v + a < 2 ^ 63 -> rec_inv s -> rec_inv (after_stake s v d a u c).
Proof.
  intros Ha Hb Hs. apply (rec_inv_update s _ v (stake_rec s v d a u) a); try reflexivity; [| |exact Hs]; destruct Hs as (H1 & _ & H3).
  - specialize (H1 v). lia.
  - apply stake_rec_ok; [exact Ha|exact Hb|apply H3].
Qed.

Lemma rec_inv_unstake s v d a r k :
  0 <= a -> 0 <= zget (vtot s) v - a -> vrecs s !! v = Some r -> rec_inv s -> rec_inv (after_unstake s v d a r k).
Proof.
  intros Ha Hv Er Hs. eapply (rec_inv_update s _ v _ (- a)); try reflexivity; [exact Hv| |exact Hs].
  destruct Hs as (_ & _ & H3). specialize (H3 v). rewrite Er in H3. simpl in *. lia.
Qed.

Lemma apply_pending_lookup blocked e recs (v : addr) :
  apply_pending blocked e recs !! v =
  if Pos.eqb e.1 v
  then (fun r => if vr_staking r - e.2 <? 0 then r
                 else VRec (vr_saddr r) (vr_staking r - e.2) (wrap64 (vr_staking r - e.2))) <$> recs !! v
  else recs !! v.
Proof.
  unfold apply_pending. destruct (Pos.eqb_spec e.1 v) as [<-|Hne]; destruct (recs !! e.1) as [r|] eqn:E; simpl.
  - destruct (_ <? 0); [exact E|apply lookup_insert].
  - exact E.
  - destruct (_ <? 0); [reflexivity|apply lookup_insert_ne, Hne].
  - reflexivity.
Qed.

Lemma apply_pending_fold blocked recs v t l : 0 <= t -> entries_nonneg l ->
  forall p, 0 <= p -> rec_ok (recs !! v) t (p + entries_of l v) -> rec_ok (foldr (apply_pending blocked) recs l !! v) t p.
Proof.
  (* [foldr] applies the pending penalties from the last one on; [p] is what is still to come *)
  intros Ht. induction 1 as [|[ev ep] l Hep Hl IH]; intros p Hp Hr; simpl in *; [rewrite Z.add_0_r in Hr; exact Hr|].
  rewrite apply_pending_lookup. simpl. destruct (Pos.eqb ev v); [|exact (IH p Hp Hr)].
  rewrite Z.add_assoc in Hr. apply IH in Hr; [|lia].
  destruct (foldr _ _ _ !! v) as [r|]; simpl in *; [|lia].
  destruct (Z.ltb_spec (vr_staking r - ep) 0); simpl; lia.
Qed.

Lemma delete_powerless_spec prev recs v :
  delete_powerless prev recs !! v = recs !! v \/ (delete_powerless prev recs !! v = None /\ powerless_now recs v = true).
Proof.
  unfold delete_powerless. induction (map_to_list prev) as [|e l IH]; simpl; [left; reflexivity|].
  destruct ((vr_power e.2 <=? 0) && powerless_now recs e.1) eqn:E; [|exact IH].
  apply andb_true_iff in E as [_ E]. destruct (decide (e.1 = v)) as [<-|Hne].
  - right. rewrite lookup_delete. split; [reflexivity|exact E].
  - rewrite lookup_delete_ne by exact Hne. exact IH.
Qed.

Lemma rec_inv_penalty s v d p : 0 <= p -> 0 <= zget (vtot s) v - p -> rec_inv s -> rec_inv (after_penalty s v d p).
Proof.
  intros Hp Hv (H1 & H2 & H3).
  split; [|split; [constructor; assumption|]]; intros v'; specialize (H1 v'); specialize (H3 v'); simpl; rewrite zget_zadd;
    destruct (Pos.eqb_spec v v') as [<-|_]; [lia|lia| |rewrite Z.add_0_r; exact H3].
  (* with no record the total is 0, and then so is a penalty that the total covers *)
  destruct (vrecs s !! v); simpl in *; lia.
Qed.

Lemma rec_inv_verdicts vs : forall s,
  forallb (fun e => (0 <=? e.1.2) && (0 <? e.2)) vs = true -> rec_inv s -> rec_inv (fold_left verdict vs s).
Proof.
  induction vs as [|[[v pct] dec] vs IH]; intros s Hp Hs; [exact Hs|]. cbn [fold_left].
  apply andb_true_iff in Hp as [Hp Hps]. apply IH; [exact Hps|]. simpl in Hp.
  destruct (verdict_cases s v pct dec) as [->|(d & p & -> & Hv & _ & ->)]; [exact Hs|].
  apply rec_inv_penalty; [|exact Hv|exact Hs]. apply penalty_amount_nonneg; [apply Hs|lia|lia].
Qed.

Lemma rec_inv_step s o : record_env_violated s o = false -> rec_inv s -> rec_inv (fst (step s o)).
Proof.
  intros Ht Hs. unfold record_env_violated in Ht. destruct o; simpl in *.
  - edestruct do_stake_cases as [->|(_ & Ha%amount_ok_range & u & ->)]; [exact Hs|].
    apply rec_inv_stake; [lia|lia|exact Hs].
  - edestruct do_unstake_cases as [->|(_ & Ha%amount_ok_range & Hv & _ & r & Er & ->)]; [exact Hs|].
    apply rec_inv_unstake; [lia|exact Hv|exact Er|exact Hs].
  - edestruct do_withdraw_cases as [->|(_ & _ & _ & ->)]; exact Hs.
  - destruct Hs as (H1 & H2 & H3). split; [exact H1|split; [constructor|]]. intros v. simpl.
    apply apply_pending_fold; [apply H1|exact H2|lia|]. apply H3.
  - unfold do_end. destruct (_ <=? 1); [exact Hs|]. change (rec_inv (snapshot ?x)) with (rec_inv x).
    apply rec_inv_verdicts; [apply negb_false_iff, Ht|]. destruct Hs as (H1 & H2 & H3). split; [exact H1|split; [exact H2|]].
    (* a record that is deleted had power 0, hence stake 0, hence total and pending penalty 0 *)
    intros v. specialize (H1 v). specialize (H3 v). pose proof (entries_of_nonneg _ v H2) as Hp. simpl.
    destruct (delete_powerless_spec (vprev s) (vrecs s) v) as [->|[-> Hpw]]; [exact H3|].
    unfold powerless_now in Hpw. destruct (vrecs s !! v) as [r|]; [|discriminate].
    rewrite (rec_ok_power r _ _ H1 Hp H3) in Hpw. simpl in *. lia.
  - rewrite do_genstake_eq. change (rec_inv (snapshot ?x)) with (rec_inv x). apply rec_inv_stake; [lia|lia|exact Hs].
  - exact Hs.
Qed.

Lemma rec_inv_run os : forall s, guarded record_env_violated s os = true -> rec_inv s -> rec_inv (run s os).
Proof.
  induction os as [|o os IH]; intros s Hg Hs; simpl in *; [exact Hs|].
  apply andb_true_iff in Hg as [H1 H2]. apply negb_true_iff in H1. apply IH; [exact H2|]. apply rec_inv_step; assumption.
Qed.

Lemma rec_inv_empty : rec_inv empty_state.
Proof. split; [|split]; [intros v; apply Z.le_refl|constructor|intros v; split; reflexivity]. Qed.
