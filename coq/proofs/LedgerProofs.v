(* LedgerProofs.v — generic lemmas about theories/Ledger.v (C02, C03): conservation of weighted sums
   by operation lists, transactions, blocks and histories. *)
From stdpp Require Import gmap list.
From Coq Require Import ZArith NArith Lia ZifyBool ZifyNat ZifyN.
From OL Require Import theories.Ledger.
Local Open Scope Z_scope.

Lemma lget_lset l k v k' : lget (lset l k v) k' = if decide (k = k') then v else lget l k'.
Proof.
  unfold lget, lset. destruct (Z.eqb_spec v 0) as [->|_]; destruct (decide (k = k')) as [->|N].
  - rewrite lookup_delete. reflexivity.
  - rewrite lookup_delete_ne by exact N. reflexivity.
  - rewrite lookup_insert. reflexivity.
  - rewrite lookup_insert_ne by exact N. reflexivity.
Qed.

Lemma lget_ladd l k v k' : lget (ladd l k v) k' = if decide (k = k') then lget l k + v else lget l k'.
Proof. apply lget_lset. Qed.

Lemma lget_ladd_eq l k v : lget (ladd l k v) k = lget l k + v.
Proof. rewrite lget_ladd. apply decide_True. reflexivity. Qed.

Lemma lget_ladd_ne l k v k' : k <> k' -> lget (ladd l k v) k' = lget l k'.
Proof. rewrite lget_ladd. apply decide_False. Qed.

Lemma wsum_empty (w : key -> Z) : wsum w ∅ = 0.
Proof. unfold wsum. apply map_fold_empty. Qed.

Lemma wsum_insert_fresh (w : key -> Z) (l : gmap key Z) k v : l !! k = None -> wsum w (<[k:=v]> l) = w k * v + wsum w l.
Proof. intros E. unfold wsum. rewrite map_fold_insert_L; [reflexivity|intros; lia|exact E]. Qed.

Lemma wsum_delete (w : key -> Z) (l : gmap key Z) k : wsum w (delete k l) = wsum w l - w k * lget l k.
Proof.
  unfold lget. destruct (l !! k) as [old|] eqn:E; simpl.
  - pose proof (wsum_insert_fresh w (delete k l) k old (lookup_delete l k)) as H.
    rewrite (insert_delete l k old E) in H. lia.
  - rewrite delete_notin by exact E. lia.
Qed.

Lemma wsum_insert (w : key -> Z) (l : gmap key Z) k v : wsum w (<[k:=v]> l) = wsum w l + w k * (v - lget l k).
Proof. rewrite <- insert_delete_insert, wsum_insert_fresh, wsum_delete by apply lookup_delete. lia. Qed.

Lemma wsum_lset (w : key -> Z) (l : gmap key Z) k v : wsum w (lset l k v) = wsum w l + w k * (v - lget l k).
Proof. unfold lset. destruct (Z.eqb_spec v 0) as [->|_]; [rewrite wsum_delete; lia|apply wsum_insert]. Qed.

Lemma wsum_ladd (w : key -> Z) (l : gmap key Z) k v : wsum w (ladd l k v) = wsum w l + w k * v.
Proof. unfold ladd. rewrite wsum_lset. lia. Qed.

Lemma apply_op_delta (w : key -> Z) (l : gmap key Z) o l' : apply_op l o = Some l' -> wsum w l' = wsum w l + op_delta w o.
Proof.
  destruct o as [s d v|s v|d v]; simpl; try destruct (_ <? 0); try discriminate; intros <-%(inj Some); rewrite ?wsum_ladd; lia.
Qed.

Lemma apply_ops_delta (w : key -> Z) ops : forall l l', apply_ops l ops = Some l' -> wsum w l' = wsum w l + ops_delta w ops.
Proof.
  induction ops as [|o ops IH]; intros l l'; simpl.
  - intros [= <-]. lia.
  - destruct (apply_op l o) as [l1|] eqn:E; [|discriminate].
    intros H. rewrite (IH _ _ H), (apply_op_delta w _ _ _ E). lia.
Qed.

Lemma apply_ops_move l s d v ops l' :
  apply_ops l (Move s d v :: ops) = Some l' -> apply_ops (ladd (ladd l s (- v)) d v) ops = Some l'.
Proof. simpl. destruct (_ <? 0); [discriminate|]. intros H. exact H. Qed.

Lemma run_tx_delta (w : key -> Z) l ops : wsum w (run_tx l ops) = wsum w l \/ wsum w (run_tx l ops) = wsum w l + ops_delta w ops.
Proof. unfold run_tx. destruct (apply_ops l ops) as [l'|] eqn:E; [right; exact (apply_ops_delta w _ _ _ E)|left; reflexivity]. Qed.

Section Fold.
Context {A B : Type} (f : A -> B -> A).

Lemma fold_left_preserves (P : A -> Prop) (Q : B -> Prop) :
  (forall a b, P a -> Q b -> P (f a b)) -> forall bs a, P a -> Forall Q bs -> P (fold_left f bs a).
Proof.
  intros step bs. induction bs as [|b bs IH]; intros a Pa F; [exact Pa|].
  inversion F; subst. apply IH; [apply step|]; assumption.
Qed.

Lemma fold_left_bound (m : A -> Z) (g : B -> Z) :
  (forall a b, m (f a b) <= m a + g b) -> forall bs a, m (fold_left f bs a) <= m a + fold_right (fun b acc => g b + acc) 0 bs.
Proof.
  intros step bs. induction bs as [|b bs IH]; intros a; simpl; [lia|].
  specialize (IH (f a b)). specialize (step a b). lia.
Qed.

Lemma fold_left_decrease (m : A -> Z) bs : forall a, m (fold_left f bs a) < m a -> exists b a', In b bs /\ m (f a' b) < m a'.
Proof.
  induction bs as [|b bs IH]; intros a; simpl; [lia|]. intros H.
  destruct (Z_lt_ge_dec (m (f a b)) (m a)) as [L|G]; [exists b, a; auto|].
  destruct (IH (f a b)) as (b' & a' & I & D); [lia|]. exists b', a'. auto.
Qed.
End Fold.

Lemma op_delta_total c o : op_delta (tw c) o = op_mint c o - op_burn c o.
Proof. destruct o; simpl; lia. Qed.

Lemma ops_delta_total c ops : ops_delta (tw c) ops = minted c ops - burned c ops.
Proof. induction ops as [|o ops IH]; simpl; [lia|]. rewrite op_delta_total. lia. Qed.

Lemma total_exact c l ops l' : apply_ops l ops = Some l' ->
  total c l' = total c l + minted c ops - burned c ops.
Proof. intros H. unfold total. rewrite (apply_ops_delta _ _ _ _ H), ops_delta_total. lia. Qed.

Lemma tw_conservative c s d v : conservative (Move s d v) = true -> tw c s = tw c d.
Proof.
  unfold conservative, tw. intros H.
  apply andb_true_iff in H as [H1 H2]. apply N.eqb_eq in H1. apply Bool.eqb_prop in H2.
  rewrite H1, H2. reflexivity.
Qed.

Lemma move_mints_nothing c s d v : conservative (Move s d v) = true -> op_mint c (Move s d v) = 0.
Proof. intros H. simpl. rewrite (tw_conservative c s d v H). lia. Qed.

Definition surplus (c : N) (ops : list lop) : Z := Z.max 0 (minted c ops - burned c ops).

Lemma run_tx_total_bound c l ops : total c (run_tx l ops) <= total c l + surplus c ops.
Proof. unfold total, surplus. destruct (run_tx_delta (tw c) l ops) as [-> | ->]; rewrite ?ops_delta_total; lia. Qed.

Definition block_surplus (c : N) (txs : list (list lop)) : Z := fold_right (fun ops acc => surplus c ops + acc) 0 txs.

Lemma run_block_total_bound c txs l : total c (run_block l txs) <= total c l + block_surplus c txs.
Proof. exact (fold_left_bound run_tx (total c) (surplus c) (run_tx_total_bound c) txs l). Qed.

Definition history_surplus (c : N) (bs : list (list (list lop))) : Z := fold_right (fun b acc => block_surplus c b + acc) 0 bs.

Lemma run_history_total_bound c bs l : total c (run_history l bs) <= total c l + history_surplus c bs.
Proof. exact (fold_left_bound run_block (total c) (block_surplus c) (fun l b => run_block_total_bound c b l) bs l). Qed.

Lemma surplus_nonneg c ops : 0 <= surplus c ops.
Proof. unfold surplus. lia. Qed.

Lemma block_surplus_bound c txs allow :
  Forall2 (fun ops a => minted c ops - burned c ops <= a /\ 0 <= a) txs allow ->
  block_surplus c txs <= fold_right Z.add 0 allow.
Proof.
  induction 1 as [|ops a txs allow [H1 H2] _ IH]; simpl; [lia|]. unfold surplus. lia.
Qed.

Lemma nonneg_empty : nonneg ∅.
Proof. intros k. reflexivity. Qed.

Lemma ladd_nonneg l k v : nonneg l -> 0 <= lget l k + v -> nonneg (ladd l k v).
Proof. intros N H k'. rewrite lget_ladd. destruct (decide (k = k')); [exact H|apply N]. Qed.

Lemma apply_op_nonneg l o l' : nonneg l -> credit_nonneg o = true -> apply_op l o = Some l' -> nonneg l'.
Proof.
  intros N C.
  (* a subtraction is guarded, so what can go wrong is an addition of a negative amount *)
  destruct o as [s d v|s v|d v]; simpl in *; try destruct (Z.ltb_spec (lget l s - v) 0); try discriminate; intros <-%(inj Some).
  - apply ladd_nonneg; [apply ladd_nonneg; [exact N|lia]|].
    rewrite lget_ladd. pose proof (N d). destruct (decide (s = d)); lia.
  - apply ladd_nonneg; [exact N|lia].
  - apply ladd_nonneg; [exact N|]. pose proof (N d). lia.
Qed.

Lemma apply_ops_nonneg ops : forall l l', nonneg l -> forallb credit_nonneg ops = true ->
  apply_ops l ops = Some l' -> nonneg l'.
Proof.
  induction ops as [|o ops IH]; intros l l' N C; simpl in *.
  - intros [= <-]. exact N.
  - apply andb_true_iff in C as [C1 C2].
    destruct (apply_op l o) as [l1|] eqn:E; [|discriminate].
    apply IH; [exact (apply_op_nonneg l o l1 N C1 E)|exact C2].
Qed.

Lemma run_tx_nonneg l ops : nonneg l -> forallb credit_nonneg ops = true -> nonneg (run_tx l ops).
Proof.
  intros N C. unfold run_tx. destruct (apply_ops l ops) as [l'|] eqn:E; [exact (apply_ops_nonneg ops l l' N C E)|exact N].
Qed.

Lemma run_block_nonneg l txs : nonneg l -> Forall (fun ops => forallb credit_nonneg ops = true) txs ->
  nonneg (run_block l txs).
Proof. exact (fold_left_preserves run_tx nonneg _ run_tx_nonneg txs l). Qed.

Lemma run_history_nonneg bs l : nonneg l ->
  Forall (Forall (fun ops => forallb credit_nonneg ops = true)) bs -> nonneg (run_history l bs).
Proof. exact (fold_left_preserves run_block nonneg _ run_block_nonneg bs l). Qed.

Lemma hw_range a c k : hw a c k = 0 \/ hw a c k = 1.
Proof. unfold hw. destruct (_ && _); auto. Qed.

Lemma hw_other a c k : k_owner k <> a -> hw a c k = 0.
Proof. unfold hw. intros H. destruct (N.eqb_spec (k_owner k) a); [contradiction|reflexivity]. Qed.

Lemma subsetb_In a b : subsetb a b = true -> forall x, In x a -> In x b.
Proof.
  unfold subsetb, inb. rewrite forallb_forall. intros H x (y & I & ->%N.eqb_eq)%H%existsb_exists. exact I.
Qed.

Lemma op_not_debited a c o : ~ In a (op_debited o) -> 0 <= op_delta (hw a c) o.
Proof.
  destruct o as [s d v|s v|d v]; simpl; intros H.
  - destruct (Z.ltb_spec 0 v).
    { rewrite (hw_other a c s (fun E => H (or_introl E))). destruct (hw_range a c d) as [-> | ->]; lia. }
    destruct (Z.ltb_spec v 0); [|assert (v = 0) as -> by lia; lia].
    rewrite (hw_other a c d (fun E => H (or_introl E))). destruct (hw_range a c s) as [-> | ->]; lia.
  - destruct (Z.ltb_spec 0 v); [rewrite (hw_other a c s (fun E => H (or_introl E))); lia|].
    destruct (hw_range a c s) as [-> | ->]; lia.
  - destruct (Z.ltb_spec v 0); [rewrite (hw_other a c d (fun E => H (or_introl E))); lia|].
    destruct (hw_range a c d) as [-> | ->]; lia.
Qed.

Lemma ops_not_debited a c ops : ~ In a (debited ops) -> 0 <= ops_delta (hw a c) ops.
Proof.
  induction ops as [|o ops IH]; simpl; [lia|]. intros H.
  pose proof (op_not_debited a c o (fun I => H (in_or_app _ _ _ (or_introl I)))).
  pose proof (IH (fun I => H (in_or_app _ _ _ (or_intror I)))). lia.
Qed.

Lemma run_tx_holdings a c l ops : ~ In a (debited ops) -> holdings a c l <= holdings a c (run_tx l ops).
Proof.
  intros H. pose proof (ops_not_debited a c ops H). unfold holdings.
  destruct (run_tx_delta (hw a c) l ops) as [-> | ->]; lia.
Qed.

Lemma run_tx_debit_needs_source a c l ops : holdings a c (run_tx l ops) < holdings a c l -> In a (debited ops).
Proof.
  intros H. destruct (in_dec N.eq_dec a (debited ops)) as [I|I]; [exact I|].
  pose proof (run_tx_holdings a c l ops I). lia.
Qed.

Lemma run_block_debit_needs_source a c txs l :
  holdings a c (run_block l txs) < holdings a c l -> exists ops, In ops txs /\ In a (debited ops).
Proof.
  intros H. destruct (fold_left_decrease run_tx (holdings a c) txs l H) as (ops & l' & I & D).
  exists ops. split; [exact I|exact (run_tx_debit_needs_source a c l' ops D)].
Qed.

Lemma run_history_debit_needs_source a c bs l :
  holdings a c (run_history l bs) < holdings a c l ->
  exists b ops, In b bs /\ In ops b /\ In a (debited ops).
Proof.
  intros H. destruct (fold_left_decrease run_block (holdings a c) bs l H) as (b & l' & I & D).
  destruct (run_block_debit_needs_source a c b l' D) as (ops & I' & S). exists b, ops. auto.
Qed.

Lemma own_move_neutral a c o : own_move o = true -> op_delta (hw a c) o = 0.
Proof.
  destruct o as [s d v|s v|d v]; simpl; try discriminate. intros H.
  apply andb_true_iff in H as [H H4]. apply andb_true_iff in H as [H H3]. apply andb_true_iff in H as [H1 H2].
  apply N.eqb_eq in H1, H2. unfold hw. rewrite H1, H2, H3, H4. lia.
Qed.

Lemma own_moves_neutral a c ops : forallb own_move ops = true -> ops_delta (hw a c) ops = 0.
Proof.
  induction ops as [|o ops IH]; simpl; [lia|]. intros H. apply andb_true_iff in H as [H1 H2].
  rewrite (own_move_neutral a c o H1), (IH H2). lia.
Qed.

Lemma run_tx_own_moves a c l ops : forallb own_move ops = true -> holdings a c (run_tx l ops) = holdings a c l.
Proof.
  intros H. unfold holdings. destruct (run_tx_delta (hw a c) l ops) as [-> | ->]; [|rewrite own_moves_neutral by exact H]; lia.
Qed.
