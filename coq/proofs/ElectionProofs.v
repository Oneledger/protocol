(* ElectionProofs.v — lemmas for C10 (props/C10.v) about theories/Election.v and
   theories/Tendermint.v. *)
From stdpp Require Import gmap list sorting.
From Coq Require Import ZArith Lia.
From OL Require Import theories.Election theories.Tendermint.
Local Open Scope Z_scope.

(* The model is written with List.filter, map and existsb; stdpp reasons with ∈, NoDup, ⊆+. *)
Lemma elem_of_filter {A} (f : A -> bool) l x : x ∈ List.filter f l <-> x ∈ l /\ f x = true.
Proof. rewrite !elem_of_list_In. apply filter_In. Qed.

Lemma existsb_elem {A} (f : A -> bool) l : existsb f l = true <-> exists x, x ∈ l /\ f x = true.
Proof. rewrite existsb_exists. by setoid_rewrite elem_of_list_In. Qed.

Lemma forallb_elem {A} (f : A -> bool) l : forallb f l = true <-> forall x, x ∈ l -> f x = true.
Proof. rewrite forallb_forall. by setoid_rewrite elem_of_list_In. Qed.

Lemma filter_sublist {A} (f : A -> bool) l : List.filter f l `sublist_of` l.
Proof. induction l as [|x l IH]; simpl; [done|]. destruct (f x); by constructor. Qed.

Lemma filter_perm {A} (f : A -> bool) l k : l ≡ₚ k -> List.filter f l ≡ₚ List.filter f k.
Proof.
  induction 1 as [|x l k _ IH|x y l|l k m _ IH1 _ IH2]; simpl; [done| | |by etrans].
  - destruct (f x); by rewrite IH.
  - destruct (f x), (f y); try done. apply perm_swap.
Qed.

Lemma submseteq_NoDup {A} (l k : list A) : l ⊆+ k -> NoDup k -> NoDup l.
Proof. intros [k' ->]%submseteq_Permutation. by intros [? _]%NoDup_app. Qed.

Lemma NoDup_map_filter {A B} (g : A -> B) (f : A -> bool) l :
  NoDup (map g l) -> NoDup (map g (List.filter f l)).
Proof. apply submseteq_NoDup, sublist_submseteq, fmap_sublist, filter_sublist. Qed.

Lemma StronglySorted_filter {A} (R : relation A) (f : A -> bool) l :
  StronglySorted R l -> StronglySorted R (List.filter f l).
Proof.
  induction 1 as [|x l _ IH Hall]; simpl; [constructor|].
  destruct (f x); [|done]. constructor; [done|].
  rewrite Forall_forall in *. intros y [Hy _]%elem_of_filter. by apply Hall.
Qed.

Lemma memb_true k l : memb k l = true <-> k ∈ l.
Proof.
  unfold memb. rewrite existsb_elem. split.
  - by intros (x & ? & ->%N.eqb_eq).
  - intros ?. exists k. by rewrite N.eqb_refl.
Qed.

Lemma memb_false k l : memb k l = false <-> k ∉ l.
Proof. by rewrite <- memb_true, not_true_iff_false. Qed.

Lemma has_rec_true a t : has_rec a t = true <-> a ∈ map c_addr t.
Proof.
  unfold has_rec. rewrite existsb_elem, elem_of_list_fmap.
  split; intros (c & H1 & H2); exists c.
  - by apply N.eqb_eq in H2.
  - by rewrite H1, N.eqb_refl.
Qed.

Lemma eligibleb_true minp mal c : eligibleb minp mal c = true <-> eligible minp mal c.
Proof.
  unfold eligibleb, eligible. by rewrite andb_true_iff, negb_true_iff, Z.leb_le, memb_false.
Qed.

Global Instance pow_ge_trans : Transitive pow_ge.
Proof. intros x y z. unfold pow_ge. lia. Qed.
Global Instance pow_ge_total : Total pow_ge.
Proof. intros x y. unfold pow_ge. lia. Qed.

Lemma elect_valid minp top mal cands :
  NoDup cands -> valid_election minp top mal cands (elect minp top mal cands).
Proof.
  intros Hnd. unfold elect.
  set (L := List.filter (eligibleb minp mal) (merge_sort pow_ge cands)). set (n := Z.to_nat top).
  assert (HL : forall c, c ∈ L <-> c ∈ cands /\ eligible minp mal c).
  { intros c. unfold L. by rewrite elem_of_filter, eligibleb_true, merge_sort_Permutation. }
  assert (Hsorted : StronglySorted pow_ge (take n L ++ drop n L)).
  { rewrite take_drop. apply StronglySorted_filter, StronglySorted_merge_sort; apply _. }
  assert (Htake : forall c, c ∈ take n L -> c ∈ L).
  { intros c Hc. eapply elem_of_submseteq, sublist_submseteq, sublist_take. done. }
  split.
  - apply (submseteq_NoDup _ (merge_sort pow_ge cands)); [|by rewrite merge_sort_Permutation].
    apply sublist_submseteq. etrans; [apply sublist_take | apply filter_sublist].
  - intros c Hc. by apply HL, Htake.
  - intros c Hc. by apply HL, Htake.
  - rewrite take_length. lia.
  - (* an eligible candidate outside the first n of L lies in the rest, so L is longer than n *)
    intros d Hd Hel Hnot.
    assert (Hdrop : d ∈ drop n L).
    { assert (d ∈ take n L ++ drop n L) as [?|?]%elem_of_app; [|done..]. rewrite take_drop. by apply HL. }
    assert (Hlen : (n <= length L)%nat).
    { destruct (decide (n <= length L)%nat); [done|]. rewrite drop_ge in Hdrop by lia. by apply elem_of_nil in Hdrop. }
    split; [rewrite take_length; lia|].
    intros c Hc. exact (elem_of_StronglySorted_app _ _ _ _ _ Hsorted Hc Hdrop).
Qed.

Lemma assoc_Some {A} a (l : list (key * A)) v : assoc a l = Some v -> (a, v) ∈ l.
Proof.
  induction l as [|[k w] l IH]; simpl; [done|].
  destruct (N.eqb_spec a k) as [->|_]; [intros [= ->]; left | right; auto].
Qed.

Lemma assoc_None {A} a (l : list (key * A)) : assoc a l = None -> a ∉ map fst l.
Proof.
  induction l as [|[k w] l IH]; simpl; [intros _; apply not_elem_of_nil|].
  destruct (N.eqb_spec a k); [done|]. intros ?%IH. by apply not_elem_of_cons.
Qed.

Definition well_keyed (cands : list cand) : Prop := forall c, c ∈ cands -> c_addr c = c_pk c.

Lemma assoc_non_top cands el a : well_keyed cands ->
  assoc a (non_top cands el) =
  if decide (a ∈ map c_addr cands /\ a ∉ map c_addr el) then Some a else None.
Proof.
  intros Hk. unfold non_top. set (f c := negb (inel c el)).
  assert (Hf : forall c, c ∈ List.filter f cands <-> c ∈ cands /\ c_addr c ∉ map c_addr el).
  { (* [inel c el] is [has_rec (c_addr c) el] *)
    intros c. unfold f. by rewrite elem_of_filter, negb_true_iff, <- (has_rec_true (c_addr c) el), not_true_iff_false. }
  destruct (assoc a _) as [k|] eqn:Ha.
  - apply assoc_Some, elem_of_list_fmap in Ha as (c & [= -> ->] & [Hc Hn]%Hf).
    rewrite decide_True, (Hk c Hc); [done|]. split; [by apply elem_of_list_fmap_1|done].
  - rewrite decide_False; [done|]. intros [(c & -> & Hc)%elem_of_list_fmap Hn].
    apply assoc_None in Ha. apply Ha. rewrite map_map. apply elem_of_list_fmap_1. by apply Hf.
Qed.

Lemma purge_guard_false h ph : purge_guard h ph = false <-> ph <= 0 \/ ph + 2 < h.
Proof. unfold purge_guard. rewrite andb_false_iff, Z.ltb_ge, Z.leb_gt. done. Qed.

Lemma purged_spec h cands el la pg a : well_keyed cands ->
  a ∈ purged_addrs h (non_top cands el) pg la <->
  a ∈ la /\ a ∈ map c_addr cands /\ a ∉ map c_addr el /\ purge_guard h (purge_height pg a) = false.
Proof.
  intros Hk. unfold purged_addrs, purgedb. split.
  - intros [Hla Hp]%elem_of_filter. rewrite assoc_non_top in Hp by done.
    case_decide as Hd; [|done]. destruct Hd. by apply negb_true_iff in Hp.
  - intros (Hla & Hc & Hn & Hg). apply elem_of_filter. split; [done|].
    by rewrite assoc_non_top, decide_True, Hg.
Qed.

Lemma elem_of_pos_updates k p el : (k, p) ∈ pos_updates el <-> exists c, c ∈ el /\ k = c_pk c /\ p = c_power c.
Proof.
  unfold pos_updates. rewrite elem_of_list_fmap.
  split; [intros (c & [= -> ->] & ?) | intros (c & ? & -> & ->)]; by exists c.
Qed.

Lemma filter_all {A} (f : A -> bool) l : Forall (fun x => f x = true) l -> List.filter f l = l.
Proof. induction 1 as [|x l Hx _ IH]; simpl; [done|]. by rewrite Hx, IH. Qed.

Lemma filter_none {A} (f : A -> bool) l : Forall (fun x => f x = false) l -> List.filter f l = [].
Proof. induction 1 as [|x l Hx _ IH]; simpl; [done|]. by rewrite Hx. Qed.

Lemma positives_are_election h byz cands el la pg minp top mal :
  valid_election minp top mal cands el -> 1 <= minp -> (1 <? h) || byz = true ->
  List.filter (fun u : upd => 0 <? u.2) (finish h byz cands el la pg).1 ≡ₚ pos_updates el.
Proof.
  intros Hv Hmin Hon. unfold finish. rewrite Hon. cbn [fst].
  rewrite (filter_perm _ _ _ (merge_sort_Permutation _ _)), List.filter_app.
  rewrite filter_all, filter_none, app_nil_r; [done|by apply Forall_fmap, Forall_true|].
  (* 1 <= minp: an elected candidate of power <= 0 would be filtered out *)
  apply Forall_fmap, Forall_forall. intros c [Hc _]%(ve_elig _ _ _ _ _ Hv). apply Z.ltb_lt. simpl. lia.
Qed.

Definition table_ok (t : list cand) : Prop := NoDup (map c_addr t) /\ well_keyed t.

Lemma nodupb_true l : nodupb l = true <-> NoDup l.
Proof.
  induction l as [|x l IH]; simpl; [by rewrite NoDup_nil|].
  by rewrite andb_true_iff, negb_true_iff, memb_false, IH, NoDup_cons.
Qed.

Lemma elem_of_deleted k ups : k ∈ map fst (deletes ups) <-> (k, 0) ∈ ups.
Proof.
  unfold deletes. rewrite elem_of_list_fmap. split.
  - intros ([k' q] & -> & [? Hz%Z.eqb_eq]%elem_of_filter). simpl in Hz. by subst q.
  - intros ?. exists (k, 0). split; [done|]. by apply elem_of_filter.
Qed.

Lemma filter_filter {A} (f g : A -> bool) l :
  List.filter g (List.filter f l) = List.filter (fun x => f x && g x) l.
Proof.
  induction l as [|x l IH]; simpl; [done|]. destruct (f x); simpl; [|done]. by rewrite IH.
Qed.

Lemma apply_updates_eq ups : forall s, NoDup (map fst ups) ->
  apply_updates s ups =
  List.filter (fun x : upd => negb (memb x.1 (map fst ups))) s ++ List.filter (fun u : upd => 0 <? u.2) ups.
Proof.
  unfold apply_updates. induction ups as [|u ups IH]; simpl; intros s Hnd.
  - rewrite filter_all, app_nil_r; [done|by apply Forall_true].
  - apply NoDup_cons in Hnd as [Hu%memb_false Hnd]. rewrite (IH _ Hnd). unfold apply1.
    rewrite (filter_ext _ _ (fun x : upd => negb_orb (N.eqb x.1 u.1) _)), <- filter_filter.
    destruct (0 <? u.2); [|done]. rewrite List.filter_app, <- app_assoc. simpl. by rewrite Hu.
Qed.

Lemma apply_spec s ups k p : NoDup (map fst ups) ->
  (k, p) ∈ apply_updates s ups <-> ((k, p) ∈ s /\ k ∉ map fst ups) \/ ((k, p) ∈ ups /\ 0 < p).
Proof.
  intros Hnd. by rewrite apply_updates_eq, elem_of_app, !elem_of_filter, negb_true_iff, memb_false, Z.ltb_lt.
Qed.

Definition set_ok (U : list key) (cap : key -> Z) (s : vset) : Prop :=
  NoDup (vkeys s) /\ forall k p, (k, p) ∈ s -> k ∈ U /\ 0 < p <= cap k.

Lemma set_ok_apply U cap s ups : NoDup (map fst ups) -> set_ok U cap s ->
  (forall k p, (k, p) ∈ ups -> 0 < p -> k ∈ U /\ p <= cap k) -> set_ok U cap (apply_updates s ups).
Proof.
  intros Hnd [Hs Hb] Hu. split.
  - rewrite apply_updates_eq by done. unfold vkeys. rewrite map_app. apply NoDup_app.
    split; [by apply NoDup_map_filter|]. split; [|by apply NoDup_map_filter].
    intros k (x & -> & [_ Hx%negb_true_iff%memb_false]%elem_of_filter)%elem_of_list_fmap
      (y & Hy & [? _]%elem_of_filter)%elem_of_list_fmap.
    apply Hx. rewrite Hy. by apply elem_of_list_fmap_1.
  - intros k p [[? _]|[? ?]]%apply_spec; [by apply Hb| |done]. destruct (Hu k p); [done..|]. split; [done|lia].
Qed.

Definition capsum (cap : key -> Z) (U : list key) : Z := foldr (fun k a => cap k + a) 0 U.

Lemma capsum_submseteq cap U V : (forall k, 0 <= cap k) -> U ⊆+ V -> capsum cap U <= capsum cap V.
Proof.
  intros Hc. induction 1 as [|k|k k'|k ? ? _ IH|]; simpl; try lia. specialize (Hc k). lia.
Qed.

Record cap_ok (U : list key) (cap : key -> Z) : Prop := {
  co_nodup : NoDup U;
  co_nonneg : forall k, 0 <= cap k;
  co_sum : capsum cap U <= MaxTotalVotingPower }.

Lemma cap_le_max U cap k : cap_ok U cap -> k ∈ U -> cap k <= MaxTotalVotingPower.
Proof.
  intros [_ Hc Hs] Hk%singleton_submseteq_l%(capsum_submseteq cap _ _ Hc). simpl in Hk. lia.
Qed.

Lemma set_ok_total U cap s : cap_ok U cap -> set_ok U cap s -> total s <= MaxTotalVotingPower.
Proof.
  intros [_ Hc Hs] [Hnd Hb]. etrans; [|apply Hs]. trans (capsum cap (vkeys s)).
  - clear Hnd. induction s as [|[k p] s IH]; simpl; [done|].
    destruct (Hb k p) as [_ ?]; [left|].
    specialize (IH (fun k' p' H => Hb k' p' (elem_of_list_further _ _ _ H))). lia.
  - apply capsum_submseteq, NoDup_submseteq; [done..|].
    intros k ([k' p] & -> & Hin)%elem_of_list_fmap. by apply (Hb k' p).
Qed.

Lemma NoDup_fst_eq (l : list upd) k p q : NoDup (map fst l) -> (k, p) ∈ l -> (k, q) ∈ l -> p = q.
Proof.
  intros Hnd Hp%(elem_of_list_to_map_1 (M := gmap key) _ _ _ Hnd)
    Hq%(elem_of_list_to_map_1 (M := gmap key) _ _ _ Hnd). congruence.
Qed.

Lemma not_emptied s ups k p : NoDup (map fst ups) -> (forall k, (k, 0) ∈ ups -> k ∈ vkeys s) ->
  (k, p) ∈ ups -> 0 < p ->
  (num_new s ups =? 0)%nat && (length s =? length (deletes ups))%nat = false.
Proof.
  intros Hnd Hdel Hin Hp.
  (* k is new, or it is a member that no removal names, so that the removals are fewer than the
     members *)
  destruct (memb k (vkeys s)) eqn:Hm; [apply andb_false_intro2|apply andb_false_intro1]; apply (proj2 (Nat.eqb_neq _ _)).
  - apply memb_true in Hm.
    enough (S (length (deletes ups)) <= length s)%nat by lia.
    rewrite <- (map_length (fst : upd -> key) s), <- (map_length (fst : upd -> key) (deletes ups)).
    apply (submseteq_length (k :: _)), NoDup_submseteq.
    + apply NoDup_cons. split; [|by apply NoDup_map_filter].
      intros Hq%elem_of_deleted. rewrite (NoDup_fst_eq _ _ _ _ Hnd Hin Hq) in Hp. lia.
    + intros k' [->|?%elem_of_deleted]%elem_of_cons; [done|by apply Hdel].
  - unfold num_new. intros Hl%nil_length_inv. apply (elem_of_nil (k, p)). rewrite <- Hl.
    apply elem_of_filter. split; [done|]. simpl. rewrite Hm, andb_true_r. by apply Z.ltb_lt.
Qed.

Lemma acceptb_intro s ups :
  NoDup (map fst ups) ->
  (forall k p, (k, p) ∈ ups -> 0 <= p <= MaxTotalVotingPower) ->
  (exists k p, (k, p) ∈ ups /\ 0 < p) ->
  (forall k, (k, 0) ∈ ups -> k ∈ vkeys s) ->
  total (apply_updates s ups) <= MaxTotalVotingPower ->
  acceptb s ups = true.
Proof.
  intros Hnd Hrange (k & p & Hin & Hp) Hdel Htot. unfold acceptb.
  rewrite (proj2 (nodupb_true _) Hnd), (not_emptied s ups k p), (proj2 (Z.leb_le _ _) Htot) by done.
  destruct ups; [done|]. rewrite !andb_true_r. apply andb_true_intro. split; apply forallb_elem.
  - intros [k' q] [? ?]%Hrange. apply andb_true_intro. split; by apply Z.leb_le.
  - intros u Hu%(elem_of_list_fmap_1 fst)%elem_of_deleted. by apply memb_true, Hdel.
Qed.

Lemma apply_removed_named s ups a : NoDup (map fst ups) ->
  a ∈ vkeys s -> a ∉ vkeys (apply_updates s ups) -> exists p, (a, p) ∈ ups /\ p <= 0.
Proof.
  intros Hnd ([k p] & -> & Hp)%elem_of_list_fmap Hout. simpl in *.
  assert (Hkey : forall q, (k, q) ∉ apply_updates s ups).
  { intros q Hq. apply Hout. by apply (elem_of_list_fmap_1_alt fst _ (k, q)). }
  destruct (decide (k ∈ map fst ups)) as [([k' q] & -> & Hq)%elem_of_list_fmap|Hn].
  - exists q. split; [done|]. destruct (Z.le_gt_cases q 0); [done|].
    destruct (Hkey q). apply apply_spec; auto with lia.
  - destruct (Hkey p). apply apply_spec; auto.
Qed.

Record env_ok (U : list key) (cap : key -> Z) (e : env) : Prop := {
  eo_nodup : NoDup (map c_addr (e_cands e));
  eo_keyed : well_keyed (e_cands e);
  eo_min : 1 <= min_power (e_opts e);
  eo_top : 1 <= o_top (e_opts e);
  eo_some : exists c, c ∈ e_cands e /\ eligible (min_power (e_opts e)) (e_mal e) c;
  eo_valid : valid_election (min_power (e_opts e)) (o_top (e_opts e)) (e_mal e) (e_cands e) (e_el e);
  eo_cap : forall c, c ∈ e_cands e -> c_pk c ∈ U /\ c_power c <= cap (c_pk c) }.

(* what is still assumed of a block once the keys are an invariant *)
Record env_rest (U : list key) (cap : key -> Z) (e : env) : Prop := {
  er_min : 1 <= min_power (e_opts e);
  er_top : 1 <= o_top (e_opts e);
  er_some : exists c, c ∈ e_cands e /\ eligible (min_power (e_opts e)) (e_mal e) c;
  er_valid : valid_election (min_power (e_opts e)) (o_top (e_opts e)) (e_mal e) (e_cands e) (e_el e);
  er_cap : forall c, c ∈ e_cands e -> c_pk c ∈ U /\ c_power c <= cap (c_pk c) }.

Lemma env_ok_pos U cap e k p : env_ok U cap e -> (k, p) ∈ pos_updates (e_el e) ->
  k ∈ U /\ 0 < p <= cap k.
Proof.
  intros He (c & Hc & -> & ->)%elem_of_pos_updates. pose proof (eo_min _ _ _ He).
  destruct (ve_elig _ _ _ _ _ (eo_valid _ _ _ He) c Hc).
  destruct (eo_cap _ _ _ He c (ve_sub _ _ _ _ _ (eo_valid _ _ _ He) c Hc)). split; [done|lia].
Qed.

Lemma elected_pks U cap e : env_ok U cap e -> map c_pk (e_el e) = map c_addr (e_el e).
Proof.
  intros He. apply map_ext_in. intros c Hc%elem_of_list_In. symmetry.
  by apply (eo_keyed _ _ _ He), (ve_sub _ _ _ _ _ (eo_valid _ _ _ He)).
Qed.

Lemma elected_keys_NoDup U cap e : env_ok U cap e -> NoDup (map c_pk (e_el e)).
Proof.
  intros He. rewrite (elected_pks _ _ _ He).
  apply (submseteq_NoDup _ (map c_addr (e_cands e))); [|apply He].
  apply fmap_submseteq, NoDup_submseteq; apply (eo_valid _ _ _ He).
Qed.

Lemma env_ok_elects U cap e : env_ok U cap e -> exists k p, (k, p) ∈ pos_updates (e_el e).
Proof.
  intros He. destruct (e_el e) as [|c el] eqn:Hel.
  - (* some candidate is eligible and the top count is positive *)
    destruct (eo_some _ _ _ He) as (d & Hd & Hdel).
    destruct (ve_max _ _ _ _ _ (eo_valid _ _ _ He) d Hd Hdel) as [Htop _].
    { rewrite Hel. apply not_elem_of_nil. }
    pose proof (eo_top _ _ _ He). rewrite Hel in Htop. simpl in Htop. lia.
  - exists (c_pk c), (c_power c). left.
Qed.

Definition pgh (ch : chain) (a : key) : Z := purge_height (ch_purge ch) a.

(* [ci_1], [ci_2] are what makes every power-0 update name a member *)
Record chain_inv (U : list key) (cap : key -> Z) (ch : chain) : Prop := {
  ci_h : 0 <= ch_height ch;
  ci_prev : NoDup (vkeys (ch_prev ch));
  ci_cur : NoDup (vkeys (ch_cur ch));
  ci_next : set_ok U cap (ch_next ch);
  ci_1 : forall a, a ∈ vkeys (ch_prev ch) ->
           a ∈ vkeys (ch_cur ch) \/ (0 < pgh ch a /\ ch_height ch - 1 <= pgh ch a);
  ci_2 : forall a, a ∈ vkeys (ch_cur ch) ->
           a ∈ vkeys (ch_next ch) \/ (0 < pgh ch a /\ ch_height ch <= pgh ch a);
  ci_pg : forall a, pgh ch a <= ch_height ch }.

Definition genesis_ok (U : list key) (cap : key -> Z) (g : vset) : Prop := set_ok U cap g.

Lemma init_inv U cap g : genesis_ok U cap g -> chain_inv U cap (chain_init g).
Proof.
  intros Hg. split; simpl; [done|constructor|apply Hg..|by intros a ?%elem_of_nil|by left|done].
Qed.

Lemma purge_height_foldr h pg pa a :
  purge_height (foldr (fun a m => <[a := h]> m) pg pa) a =
  if decide (a ∈ pa) then h else purge_height pg a.
Proof.
  induction pa as [|b pa IH]; [done|]. cbn [foldr]. unfold purge_height in *.
  destruct (N.eq_dec a b) as [->|Hne].
  - rewrite lookup_insert, decide_True; [done|left].
  - rewrite lookup_insert_ne, IH by done. apply decide_ext.
    split; [by right|by intros [?|?]%elem_of_cons].
Qed.

Lemma chain_inv_step U cap ch s' pa : chain_inv U cap ch -> set_ok U cap s' ->
  (forall a, a ∈ vkeys (ch_next ch) -> a ∈ vkeys s' \/ a ∈ pa) ->
  chain_inv U cap (mkch (ch_cur ch) (ch_next ch) s'
                    (foldr (fun a m => <[a := ch_height ch + 1]> m) (ch_purge ch) pa) (ch_height ch + 1)).
Proof.
  intros [Hh _ Hcur Hnext _ H2 Hpg] Hs' Hrem. set (ch' := mkch _ _ _ _ _).
  assert (Hpgh : forall a, pgh ch' a = if decide (a ∈ pa) then ch_height ch + 1 else pgh ch a).
  { intros a. apply purge_height_foldr. }
  split; [simpl; lia|done|apply Hnext|done|..]; intros a; rewrite Hpgh; cbn [ch' ch_cur ch_next ch_height].
  - intros [?|?]%H2; [by left|right]. case_decide; lia.
  - intros [?|?]%Hrem; [by left|right]. rewrite decide_True by done. lia.
  - specialize (Hpg a). case_decide; lia.
Qed.

Definition chain_pa (ch : chain) (e : env) : list key :=
  purged_addrs (ch_height ch + 1) (non_top (e_cands e) (e_el e)) (ch_purge ch) (vkeys (ch_prev ch)).

Lemma chain_updates_on U cap ch e :
  chain_inv U cap ch -> env_ok U cap e -> (1 <? ch_height ch + 1) || e_byz e = true ->
  let ups := (chain_updates ch e).1 in
  (forall k p, (k, p) ∈ ups <-> (k, p) ∈ pos_updates (e_el e) \/ (p = 0 /\ k ∈ chain_pa ch e)) /\
  (forall k, k ∈ map fst ups <-> k ∈ map c_pk (e_el e) \/ k ∈ chain_pa ch e) /\
  NoDup (map fst ups) /\
  (chain_updates ch e).2 =
    foldr (fun a m => <[a := ch_height ch + 1]> m) (ch_purge ch) (chain_pa ch e).
Proof.
  intros Hinv He Hon ups. set (pa := chain_pa ch e).
  pose proof (eo_keyed _ _ _ He) as Hk.
  assert (Hups : ups ≡ₚ pos_updates (e_el e) ++ map (fun a => (a, 0)) pa).
  { unfold ups, chain_updates, finish. rewrite Hon. cbn [fst]. rewrite merge_sort_Permutation.
    erewrite (map_ext_in _ (fun a => (a, 0))); [done|]. intros a [_ Hp]%elem_of_list_In%elem_of_filter.
    unfold purgedb in Hp. rewrite assoc_non_top in Hp by done. rewrite assoc_non_top by done. by case_decide. }
  assert (Hkeys : map fst ups ≡ₚ map c_pk (e_el e) ++ pa).
  { rewrite Hups. unfold pos_updates. rewrite map_app, !map_map. simpl. by rewrite map_id. }
  assert (Hin : forall k p, (k, p) ∈ ups <-> (k, p) ∈ pos_updates (e_el e) \/ (p = 0 /\ k ∈ pa)).
  { intros k p. rewrite Hups, elem_of_app, elem_of_list_fmap. split; (intros [?|H]; [by left|right]).
    - by destruct H as (a & [= -> ->] & ?).
    - destruct H as [-> ?]. by exists k. }
  split; [done|]. split; [|split; [|unfold chain_updates, finish; by rewrite Hon]].
  - intros k. by rewrite Hkeys, elem_of_app.
  - rewrite Hkeys. apply NoDup_app.
    split; [exact (elected_keys_NoDup _ _ _ He)|]. split.
    + rewrite (elected_pks _ _ _ He).
      by intros a Ha (_ & _ & Hn & _)%(purged_spec _ _ _ _ _ _ Hk).
    + eapply submseteq_NoDup; [apply sublist_submseteq, filter_sublist|apply Hinv].
Qed.

Lemma ups_cases U cap ch e k p :
  chain_inv U cap ch -> env_ok U cap e -> (1 <? ch_height ch + 1) || e_byz e = true ->
  (k, p) ∈ (chain_updates ch e).1 ->
  (k ∈ U /\ 0 < p <= cap k) \/
  (p = 0 /\ k ∈ chain_pa ch e /\ k ∈ vkeys (ch_next ch)).
Proof.
  intros Hinv He Hon. destruct (chain_updates_on U cap ch e Hinv He Hon) as (Hin & _).
  intros [Hp|[-> Hpa]]%Hin; [left; by apply (env_ok_pos _ _ _ _ _ He)|right].
  do 2 (split; [done|]).
  (* a purged address is last-active with its guard off, so it was not purged at the last two
     heights and by [ci_1], [ci_2] still is a member *)
  apply (purged_spec _ _ _ _ _ _ (eo_keyed _ _ _ He)) in Hpa as (Ha & _ & _ & Hg%purge_guard_false).
  fold (pgh ch k) in Hg. destruct (ci_1 _ _ _ Hinv k Ha) as [Hc|?]; [|lia].
  destruct (ci_2 _ _ _ Hinv k Hc); [done|lia].
Qed.

Lemma step_ok U cap ch e : cap_ok U cap -> chain_inv U cap ch -> env_ok U cap e ->
  exists ch', chain_step ch e = Some ch' /\ chain_inv U cap ch'.
Proof.
  intros Hcap Hinv He. unfold chain_step.
  destruct ((1 <? ch_height ch + 1) || e_byz e) eqn:Hon.
  2:{ unfold chain_updates, finish. rewrite Hon. eexists. split; [done|].
      apply (chain_inv_step U cap ch _ []); [done|apply Hinv|auto]. }
  destruct (chain_updates_on U cap ch e Hinv He Hon) as (Hin & _ & Hnd & ->).
  pose proof (fun k p => ups_cases U cap ch e k p Hinv He Hon) as Hcase.
  set (ups := (chain_updates ch e).1) in *.
  assert (Hnext : set_ok U cap (apply_updates (ch_next ch) ups)).
  { apply set_ok_apply; [done|apply Hinv|].
    intros k p [[? ?]|[-> _]]%Hcase ?; [split; [done|lia]|lia]. }
  assert (Hacc : acceptb (ch_next ch) ups = true).
  { apply acceptb_intro; [done| | | |by apply (set_ok_total U cap)].
    - intros k p [[?%(cap_le_max _ _ _ Hcap) ?]|[-> _]]%Hcase; [lia|by vm_compute].
    - destruct (env_ok_elects _ _ _ He) as (k & p & Hp). exists k, p.
      split; [by apply Hin; left | by apply (env_ok_pos _ _ _ _ _ He Hp)].
    - intros k [[_ ?]|(_ & _ & ?)]%Hcase; [lia|done]. }
  rewrite Hacc. eexists. split; [done|]. apply chain_inv_step; [done..|]. intros a Ha.
  destruct (decide (a ∈ vkeys (apply_updates (ch_next ch) ups))) as [|Hout]; [by left|right].
  destruct (apply_removed_named _ _ _ Hnd Ha Hout) as (p & [[_ ?]|(_ & ? & _)]%Hcase & ?); [lia|done].
Qed.

Lemma run_ok U cap es : forall ch, cap_ok U cap -> chain_inv U cap ch -> Forall (env_ok U cap) es ->
  exists ch', chain_run ch es = Some ch' /\ chain_inv U cap ch'.
Proof.
  induction es as [|e es IH]; simpl; intros ch Hcap Hinv Hes; [eauto|].
  apply Forall_cons in Hes as [He Hes].
  destruct (step_ok U cap ch e Hcap Hinv He) as (ch1 & -> & Hinv1). by apply IH.
Qed.

Lemma accepted U cap g es : cap_ok U cap -> genesis_ok U cap g -> Forall (env_ok U cap) es ->
  is_Some (chain_run (chain_init g) es).
Proof.
  intros Hcap Hg Hes. destruct (run_ok U cap es (chain_init g) Hcap (init_inv _ _ _ Hg) Hes) as (ch' & -> & _).
  by eexists.
Qed.

Lemma chain_run_app es1 es2 : forall ch,
  chain_run ch (es1 ++ es2) = chain_run ch es1 ≫= fun ch1 => chain_run ch1 es2.
Proof. induction es1 as [|e es1 IH]; simpl; intros ch; [done|]. by destruct (chain_step ch e). Qed.

Lemma upd_rec_addr a f t : map c_addr (upd_rec a f t) = map c_addr t.
Proof. unfold upd_rec. rewrite map_map. apply map_ext. intros c. by destruct (N.eqb (c_addr c) a). Qed.

Lemma upd_rec_ok a f t : table_ok t -> table_ok (upd_rec a f t).
Proof.
  intros [Hnd Hk]. split; [by rewrite upd_rec_addr|].
  intros c (d & -> & Hd)%elem_of_list_fmap. destruct (N.eqb (c_addr d) a); simpl; by apply Hk.
Qed.

Lemma rec_step_ok t o : table_ok t -> table_ok (rec_step t o).
Proof.
  intros Ht. destruct o as [a pk amt|a amt|a st|a]; simpl.
  - destruct (N.eqb_spec a pk) as [<-|]; simpl; [|done].
    destruct (has_rec a t) eqn:Hh; [by apply upd_rec_ok|]. destruct Ht as [Hnd Hk]. split.
    + rewrite map_app. apply NoDup_app. split; [done|]. split; [|apply NoDup_singleton].
      intros x Hx ->%elem_of_list_singleton. apply has_rec_true in Hx. simpl in Hx. congruence.
    + intros c [Hc| ->%elem_of_list_singleton]%elem_of_app; [by apply Hk|done].
  - destruct (existsb _ t); [done|by apply upd_rec_ok].
  - by apply upd_rec_ok.
  - destruct Ht as [Hnd Hk]. split; [by apply NoDup_map_filter|].
    intros c [Hc _]%elem_of_filter. by apply Hk.
Qed.

Lemma rec_run_ok ops : forall t, table_ok t -> table_ok (rec_run t ops).
Proof.
  unfold rec_run. induction ops as [|o ops IH]; simpl; intros t Ht; [done|]. by apply IH, rec_step_ok.
Qed.

(* the handlers refuse negative amounts since /repo 48c76fc *)
Definition op_nonneg (o : recop) : Prop :=
  match o with RStake _ _ amt => 0 <= amt | RRewrite _ st => 0 <= st | _ => True end.
Definition stakes_nonneg (t : list cand) : Prop := forall c, c ∈ t -> 0 <= c_stake c.

Lemma upd_rec_nonneg a f t :
  (forall d, d ∈ t -> c_addr d = a -> 0 <= f (c_stake d)) -> stakes_nonneg t -> stakes_nonneg (upd_rec a f t).
Proof.
  intros Hf Ht c (d & -> & Hd)%elem_of_list_fmap.
  destruct (N.eqb_spec (c_addr d) a); [by apply Hf|by apply Ht].
Qed.

Lemma rec_step_nonneg t o : op_nonneg o -> stakes_nonneg t -> stakes_nonneg (rec_step t o).
Proof.
  intros Ho Ht. destruct o as [a pk amt|a amt|a st|a]; simpl in *.
  - destruct (negb (N.eqb a pk)); [done|]. destruct (has_rec a t).
    + apply upd_rec_nonneg; [|done]. intros d ?%Ht _. lia.
    + intros c [Hc| ->%elem_of_list_singleton]%elem_of_app; [by apply Ht|done].
  - destruct (existsb _ t) eqn:E; [done|]. apply upd_rec_nonneg; [|done]. intros d Hd Ha.
    destruct (Z.ltb_spec (c_stake d - amt) 0) as [Hlt|]; [|done].
    rewrite (proj2 (existsb_elem _ t)) in E; [done|]. exists d. split; [done|].
    by rewrite (proj2 (N.eqb_eq _ _) Ha), (proj2 (Z.ltb_lt _ _) Hlt).
  - by apply upd_rec_nonneg.
  - intros c [Hc _]%elem_of_filter. by apply Ht.
Qed.

Lemma rec_run_nonneg ops : forall t, Forall op_nonneg ops -> stakes_nonneg t -> stakes_nonneg (rec_run t ops).
Proof.
  unfold rec_run. induction ops as [|o ops IH]; simpl; intros t Ho Ht; [done|].
  apply Forall_cons in Ho as [Ho Hos]. by apply IH, rec_step_nonneg.
Qed.

(* [bk_ops]: the transactions of the block, then the EndBlock deletions *)
Record blk := mkblk { bk_ops : list recop; bk_opts : opts; bk_mal : list key; bk_byz : bool; bk_el : list cand }.

Fixpoint envs_of (t : list cand) (bs : list blk) : list env :=
  match bs with
  | [] => []
  | b :: r => mke t (bk_opts b) (bk_mal b) (bk_byz b) (bk_el b) :: envs_of (rec_run t (bk_ops b)) r
  end.

Lemma envs_of_ok U cap bs : forall t, table_ok t -> Forall (env_rest U cap) (envs_of t bs) ->
  Forall (env_ok U cap) (envs_of t bs).
Proof.
  induction bs as [|b bs IH]; simpl; intros t Ht; [done|].
  intros [Hr Hrs]%Forall_cons. apply Forall_cons. split; [destruct Ht, Hr; by constructor|]. apply IH; [by apply rec_run_ok|done].
Qed.

Lemma pos_updates_key el k p : (k, p) ∈ pos_updates el -> k ∈ map c_pk el.
Proof. intros (c & ? & -> & _)%elem_of_pos_updates. by apply elem_of_list_fmap_1. Qed.

Record stepped (U : list key) (cap : key -> Z) (ch : chain) (e : env) (ch' : chain) : Prop := {
  sd_inv : chain_inv U cap ch';
  sd_prev : ch_prev ch' = ch_cur ch;
  sd_cur : ch_cur ch' = ch_next ch;
  sd_height : ch_height ch' = ch_height ch + 1;
  sd_pgh : forall a, pgh ch' a = if decide (a ∈ chain_pa ch e) then ch_height ch + 1 else pgh ch a;
  sd_elected : forall k p, (k, p) ∈ pos_updates (e_el e) -> (k, p) ∈ ch_next ch';
  sd_next : forall k p, (k, p) ∈ ch_next ch' -> (k, p) ∈ pos_updates (e_el e) \/
              ((k, p) ∈ ch_next ch /\ k ∉ map c_pk (e_el e) /\ k ∉ chain_pa ch e) }.

Lemma step_facts U cap ch e :
  cap_ok U cap -> chain_inv U cap ch -> env_ok U cap e -> 1 <= ch_height ch ->
  exists ch', chain_step ch e = Some ch' /\ stepped U cap ch e ch'.
Proof.
  intros Hcap Hinv He Hh. destruct (step_ok U cap ch e Hcap Hinv He) as (ch' & Hs & Hinv').
  exists ch'. split; [done|]. unfold chain_step in Hs. destruct (acceptb _ _); [injection Hs as <-|done].
  assert (Hon : (1 <? ch_height ch + 1) || e_byz e = true).
  { by rewrite (proj2 (Z.ltb_lt _ _)) by lia. }
  destruct (chain_updates_on U cap ch e Hinv He Hon) as (Hin & Hkeys & Hnd & Hpg).
  split; simpl; [done..|intros a|intros k p|intros k p].
  - unfold pgh. simpl. by rewrite Hpg, purge_height_foldr.
  - intros Hp. apply (apply_spec _ _ _ _ Hnd). right. split; [by apply Hin; left|].
    by apply (env_ok_pos _ _ _ _ _ He Hp).
  - intros [[? Hn]|[[?|[-> _]]%Hin ?]]%(apply_spec _ _ _ _ Hnd); [right|by left|lia].
    split; [done|]. split; intros ?; apply Hn, Hkeys; [by left|by right].
Qed.

Lemma settles U cap ch0 e n : cap_ok U cap -> chain_inv U cap ch0 -> env_ok U cap e ->
  1 <= ch_height ch0 ->
  (forall a, a ∈ vkeys (ch_next ch0) -> a ∈ map c_addr (e_cands e)) ->
  exists ch', chain_run ch0 (replicate (3 + n) e) = Some ch' /\ chain_inv U cap ch' /\ 1 <= ch_height ch' /\
    forall k p, (k, p) ∈ ch_next ch' <-> (k, p) ∈ pos_updates (e_el e).
Proof.
  intros Hcap Hinv0 He Hh Hrec. induction n as [|n (ch & Hr & Hinv & Hh' & Heq)].
  - destruct (step_facts _ _ ch0 e Hcap Hinv0 He Hh) as (ch1 & Hs1 & [Hinv1 _ Hc1 Hh1 Hpg1 _ Hn1]).
    destruct (step_facts _ _ ch1 e Hcap Hinv1 He ltac:(lia)) as (ch2 & Hs2 & [Hinv2 Hp2 _ Hh2 Hpg2 _ Hn2]).
    destruct (step_facts _ _ ch2 e Hcap Hinv2 He ltac:(lia)) as (ch3 & Hs3 & [Hinv3 _ _ Hh3 _ Hel3 Hn3]).
    exists ch3. cbn [chain_run replicate Nat.add]. rewrite Hs1, Hs2, Hs3. do 2 (split; [done|]). split; [lia|].
    intros k p. split; [|apply Hel3]. intros [?|(H2 & HnE & Hnpa2)]%Hn3; [done|].
    (* a member that is not elected survives only if it is never purged; but it was a member of
       ch0's pending set, so it signs the third block, has a record, and its last purge is too
       old for the guard *)
    apply Hn2 in H2 as [?%pos_updates_key|(H1 & _ & Hnpa1)]; [done|].
    apply Hn1 in H1 as [?%pos_updates_key|(H0 & _ & Hnpa0)]; [done|].
    assert (Hk0 : k ∈ vkeys (ch_next ch0)) by apply (elem_of_list_fmap_1 fst _ _ H0).
    destruct Hnpa2. apply (purged_spec _ _ _ _ _ _ (eo_keyed _ _ _ He)).
    split; [by rewrite Hp2, Hc1|]. split; [by apply Hrec|].
    split; [by rewrite <- (elected_pks _ _ _ He)|].
    fold (pgh ch2 k). rewrite Hpg2, Hpg1, !decide_False by done.
    pose proof (ci_pg _ _ _ Hinv0 k). apply purge_guard_false. lia.
  - destruct (step_facts _ _ ch e Hcap Hinv He Hh') as (ch' & Hs & [Hinv' _ _ Hh1 _ Hel Hn]).
    exists ch'. rewrite Nat.add_succ_r, replicate_S_end, chain_run_app, Hr. simpl. rewrite Hs.
    do 2 (split; [done|]). split; [lia|].
    intros k p. split; [|apply Hel]. intros [?|(Hin%Heq%pos_updates_key & HnE & _)]%Hn; done.
Qed.

Lemma converges U cap ch e n : cap_ok U cap -> chain_inv U cap ch -> env_ok U cap e ->
  1 <= ch_height ch ->
  (forall a, a ∈ vkeys (ch_next ch) -> a ∈ map c_addr (e_cands e)) ->
  exists ch', chain_run ch (replicate (3 + n) e) = Some ch' /\
    ch_next ch' ≡ₚ pos_updates (e_el e).
Proof.
  intros Hcap Hinv He Hh Hrec.
  destruct (settles _ _ _ _ n Hcap Hinv He Hh Hrec) as (ch' & Hr & Hinv' & _ & Hfin).
  exists ch'. split; [done|].
  apply NoDup_Permutation; [..|by intros [k p]].
  - eapply NoDup_fmap_1, (ci_next _ _ _ Hinv').
  - apply (NoDup_fmap_1 fst). unfold pos_updates. rewrite map_map.
    exact (elected_keys_NoDup _ _ _ He).
Qed.
