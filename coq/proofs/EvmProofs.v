(* EvmProofs.v — lemmas for C16 (EVM state adapter vs reference state).
   Shape of the argument: [look] is what the adapter answers for an address (live object, else
   loaded from the persistent layer); [crel] relates it pointwise to the spec's account map;
   every journal entry has a spec-level undo [sundo]; the saved state of every live revision is
   the spec-level undo of the journal suffix ([SR]); reverting one entry on the adapter is [sundo]
   on the spec side ([revert_entry_spec]); hence RevertToSnapshot = restore the copy.
   An operation that journals entries keeps [Inv] if undoing them on the new reference state gives
   the old one ([Inv_extend]); the operations are chains of such steps.  Finalise and the starting
   state are judged address by address ([fresh_ok], [Inv_fresh]). *)
From stdpp Require Import gmap list.
From Coq Require Import ZArith Lia.
From OL Require Import theories.EvmSpec theories.EvmAdapter theories.EvmCheck.
Local Open Scope Z_scope.

(* The Go code keeps every association list twice: as a slice of (key, value) pairs and as a map
   from keys to slice positions (stateObjects + addressToObjectIndex, journal.dirties +
   addressToJournalIndex, dirtyStorage + keyToDirtyStorageIndex).  [ix_ok] says the two are in
   step, [ix_sound] is the half of it that journal.dirties has; [ix_read] is a read through the
   index, with [d] for a key that is not indexed.  The definitions the invariant is written in are
   these, by conversion: [WOl] and [DW] are [ix_ok], [JOKl] is [ix_sound], [look] and [oget] are
   [ix_read], the model's [reindex] and [reindex_d] are [ix_reindex]; so a lemma of this section
   is used on them as it stands. *)
Section indexed.
  Context {K : Type} `{Countable K} {V : Type}.
  Implicit Types (l : list (K * V)) (m : gmap K nat).

  Definition ix_sound l m := forall k i, m !! k = Some i -> exists v, l !! i = Some (k, v).
  Definition ix_ok l m := forall k i, m !! k = Some i <-> exists v, l !! i = Some (k, v).
  Definition ix_read {B} (g : option V -> B) (d : B) l m k : B :=
    match m !! k with Some i => g (snd <$> l !! i) | None => d end.
  Fixpoint ix_reindex l (i : nat) m : gmap K nat :=
    match l with
    | [] => m
    | (y, _) :: rest => ix_reindex rest (S i) (<[y := i]> m)
    end.

  Lemma ix_ok_sound l m : ix_ok l m -> ix_sound l m.
  Proof. intros H0 k i. apply H0. Qed.
  Lemma ix_ok_NoDup l m : ix_ok l m -> NoDup l.*1.
  Proof.
    intros H0. apply NoDup_alt. intros i j k. rewrite !list_lookup_fmap.
    destruct (l !! i) as [[k1 v1]|] eqn:Hi, (l !! j) as [[k2 v2]|] eqn:Hj; try done. intros [= ->] [= ->].
    assert (m !! k = Some i /\ m !! k = Some j) as [??] by (split; apply H0; eauto). congruence.
  Qed.

  Lemma ix_sound_update l m i k v v' : ix_sound l m -> l !! i = Some (k, v) -> ix_sound (<[i := (k, v')]> l) m.
  Proof.
    intros H0 Hi k' j Hj. destruct (H0 _ _ Hj) as [w Hw]. destruct (decide (i = j)) as [<-|].
    - rewrite Hi in Hw. injection Hw as <- <-. rewrite list_lookup_insert by (eapply lookup_lt_Some, Hi). eauto.
    - rewrite list_lookup_insert_ne by done. eauto.
  Qed.
  Lemma ix_ok_update l m i k v v' : ix_ok l m -> l !! i = Some (k, v) -> ix_ok (<[i := (k, v')]> l) m.
  Proof.
    intros H0 Hi k' j. rewrite (H0 k' j). destruct (decide (i = j)) as [<-|].
    - rewrite list_lookup_insert, Hi by (eapply lookup_lt_Some, Hi). split; intros [? [= <-]]; eauto.
    - rewrite list_lookup_insert_ne by done. done.
  Qed.
  Lemma ix_read_update {B} (g : option V -> B) d l m i k v v' k' : ix_sound l m -> m !! k = Some i -> l !! i = Some (k, v) ->
    ix_read g d (<[i := (k, v')]> l) m k' = if decide (k = k') then g (Some v') else ix_read g d l m k'.
  Proof.
    intros H0 Hk Hi. unfold ix_read. destruct (decide (k = k')) as [<-|Hne].
    - rewrite Hk, list_lookup_insert by (eapply lookup_lt_Some, Hi). done.
    - destruct (m !! k') as [j|] eqn:Hj; [|done]. rewrite list_lookup_insert_ne; [done|].
      intros <-. destruct (H0 _ _ Hj) as [w Hw]. congruence.
  Qed.

  Lemma ix_sound_push l m k v : ix_sound l m -> ix_sound (l ++ [(k, v)]) (<[k := length l]> m).
  Proof.
    intros H0 k' j. destruct (decide (k = k')) as [<-|].
    - rewrite lookup_insert. intros [= <-]. exists v. apply list_lookup_middle. done.
    - rewrite lookup_insert_ne by done. intros Hj. destruct (H0 _ _ Hj) as [w Hw]. exists w. apply lookup_app_l_Some, Hw.
  Qed.
  Lemma ix_ok_push l m k v : ix_ok l m -> m !! k = None -> ix_ok (l ++ [(k, v)]) (<[k := length l]> m).
  Proof.
    intros H0 Hk k' j. split; [apply ix_sound_push, ix_ok_sound, H0|].
    intros [w Hw]. apply lookup_app_Some in Hw. destruct Hw as [Hw|[Hle Hw]].
    - assert (m !! k' = Some j) as Hj by (apply H0; eauto). rewrite lookup_insert_ne; congruence.
    - apply list_lookup_singleton_Some in Hw. destruct Hw as [Hj [= <- <-]]. rewrite lookup_insert. f_equal. lia.
  Qed.
  Lemma ix_read_push {B} (g : option V -> B) d l m k v k' : ix_sound l m ->
    ix_read g d (l ++ [(k, v)]) (<[k := length l]> m) k' = if decide (k = k') then g (Some v) else ix_read g d l m k'.
  Proof.
    intros H0. unfold ix_read. destruct (decide (k = k')) as [<-|Hne].
    - rewrite lookup_insert, list_lookup_middle; done.
    - rewrite lookup_insert_ne by done. destruct (m !! k') as [j|] eqn:Hj; [|done].
      destruct (H0 _ _ Hj) as [w Hw]. rewrite (lookup_app_l_Some _ _ _ _ Hw), Hw. done.
  Qed.

  Lemma ix_reindex_inv l2 : forall i m k j, ix_reindex l2 i m !! k = Some j ->
    (exists q v, l2 !! q = Some (k, v) /\ j = (i + q)%nat) \/ (k ∉ l2.*1 /\ m !! k = Some j).
  Proof.
    induction l2 as [|[z vz] rest IH]; intros i m k j Hj; simpl in Hj.
    - right. split; [apply not_elem_of_nil|done].
    - destruct (IH _ _ _ _ Hj) as [(q & v & Hq & ->)|[Hno Hm]].
      + left. exists (S q), v. split; [done|lia].
      + destruct (decide (z = k)) as [->|Hne].
        * rewrite lookup_insert in Hm. injection Hm as <-. left. exists 0%nat, vz. split; [done|lia].
        * rewrite lookup_insert_ne in Hm by done. right. split; [|done]. rewrite fmap_cons, not_elem_of_cons. done.
  Qed.
  Lemma ix_reindex_absent l2 : forall i m k, k ∉ l2.*1 -> ix_reindex l2 i m !! k = m !! k.
  Proof.
    induction l2 as [|[z vz] rest IH]; intros i m k Hk; simpl; [done|].
    rewrite fmap_cons, not_elem_of_cons in Hk. rewrite IH by tauto. apply lookup_insert_ne. intros ->. tauto.
  Qed.
  Lemma ix_reindex_present l2 : forall i m q k v, NoDup l2.*1 -> l2 !! q = Some (k, v) ->
    ix_reindex l2 i m !! k = Some (i + q)%nat.
  Proof.
    induction l2 as [|[z vz] rest IH]; intros i m q k v Hnd Hq; [done|].
    rewrite fmap_cons, NoDup_cons in Hnd. destruct Hnd as [Hz Hnd]. destruct q as [|q]; simpl in *.
    - injection Hq as -> ->. rewrite ix_reindex_absent, lookup_insert by done. f_equal. lia.
    - rewrite (IH _ _ _ _ _ Hnd Hq). f_equal. lia.
  Qed.

  Lemma lookup_cut l i j : (take i l ++ drop (S i) l) !! j = if decide (j < i)%nat then l !! j else l !! S j.
  Proof.
    rewrite <- delete_take_drop. destruct (decide (j < i)%nat); [apply lookup_delete_lt|apply lookup_delete_ge]; lia.
  Qed.

  Lemma ix_sound_remove l m i k : ix_sound l m -> m !! k = Some i ->
    ix_sound (take i l ++ drop (S i) l) (ix_reindex (drop (S i) l) i (delete k m)).
  Proof.
    intros H0 Hk k' j Hj. rewrite lookup_cut.
    destruct (ix_reindex_inv _ _ _ _ _ Hj) as [(q & v & Hq & ->)|[Hno Hm]].
    - rewrite lookup_drop in Hq. rewrite decide_False by lia. eauto.
    - destruct (decide (k = k')) as [<-|Hne]; [rewrite lookup_delete in Hm; done|].
      rewrite lookup_delete_ne in Hm by done. destruct (H0 _ _ Hm) as [v Hv].
      destruct (decide (j < i)%nat); [eauto|]. destruct (H0 _ _ Hk) as [v0 Hv0].
      destruct (decide (j = i)) as [->|]; [congruence|].
      (* k' sits behind the removed entry: then the re-indexing has overwritten its index *)
      destruct Hno. apply elem_of_list_fmap. exists (k', v). split; [done|].
      apply elem_of_list_lookup. exists (j - S i)%nat. rewrite lookup_drop, <- Hv. f_equal. lia.
  Qed.

  Lemma ix_ok_remove l m i k v : ix_ok l m -> l !! i = Some (k, v) ->
    ix_ok (take i l ++ drop (S i) l) (ix_reindex (drop (S i) l) i (delete k m)).
  Proof.
    intros H0 Hi. assert (m !! k = Some i) as Hk by (apply H0; eauto).
    intros k' j. split; [apply ix_sound_remove; [apply ix_ok_sound, H0|done]|].
    intros [w Hw]. rewrite lookup_cut in Hw. destruct (decide (j < i)%nat).
    - assert (m !! k' = Some j) as Hj by (apply H0; eauto).
      rewrite ix_reindex_absent; [rewrite lookup_delete_ne; [done|intros <-; rewrite Hk in Hj; injection Hj as ->; lia]|].
      intros ([k2 w2] & Hk2 & Hq)%elem_of_list_fmap. simpl in Hk2. subst k2.
      apply elem_of_list_lookup in Hq. destruct Hq as [q Hq].
      rewrite lookup_drop in Hq. rewrite (proj2 (H0 k' _) (ex_intro _ w2 Hq)) in Hj. injection Hj as <-. lia.
    - rewrite (ix_reindex_present _ _ _ (j - i) k' w).
      + f_equal. lia.
      + pose proof (ix_ok_NoDup _ _ H0) as Hnd. rewrite <- (take_drop (S i) l), fmap_app in Hnd.
        apply NoDup_app in Hnd. tauto.
      + rewrite lookup_drop, <- Hw. f_equal. lia.
  Qed.
  Lemma ix_read_remove {B} (g : option V -> B) d l m i k v k' : ix_ok l m -> l !! i = Some (k, v) ->
    ix_read g d (take i l ++ drop (S i) l) (ix_reindex (drop (S i) l) i (delete k m)) k' =
      if decide (k = k') then d else ix_read g d l m k'.
  Proof.
    intros H0 Hi. pose proof (ix_ok_remove _ _ _ _ _ H0 Hi) as H1.
    assert (m !! k = Some i) as Hk by (apply H0; eauto). unfold ix_read.
    destruct (ix_reindex _ _ _ !! k') as [j|] eqn:Hj.
    - destruct (proj1 (H1 _ _) Hj) as [w Hw]. rewrite Hw. rewrite lookup_cut in Hw.
      destruct (decide (j < i)%nat); (assert (m !! k' = Some _) as Hm by (apply H0; eauto));
        (rewrite decide_False by (intros <-; rewrite Hk in Hm; injection Hm as ->; lia)); rewrite Hm, Hw; done.
    - destruct (decide (k = k')); [done|]. destruct (m !! k') as [j|] eqn:Hm; [|done].
      destruct (proj1 (H0 _ _) Hm) as [w Hw]. assert (j <> i) by congruence.
      assert (exists j', (take i l ++ drop (S i) l) !! j' = Some (k', w)) as [j' Hj'].
      { destruct (decide (j < i)%nat); [exists j|exists (j - 1)%nat]; rewrite lookup_cut;
          [rewrite decide_True by done; done|rewrite decide_False by lia; rewrite <- Hw; f_equal; lia]. }
      assert (ix_reindex (drop (S i) l) i (delete k m) !! k' = Some j') by (apply H1; eauto). congruence.
  Qed.
End indexed.

Definition look (a : astate) (x : addr) : option obj :=
  match a_oidx a !! x with
  | Some i => snd <$> a_objs a !! i
  | None => load (a_pers a) x
  end.

Definition WOl (l : list (addr * obj)) (m : gmap addr nat) : Prop :=
  forall x i, m !! x = Some i <-> exists o, l !! i = Some (x, o).
Definition WO (a : astate) : Prop := WOl (a_objs a) (a_oidx a).

Lemma w_objs_id a : w_objs a (a_objs a) (a_oidx a) = a.
Proof. destruct a; reflexivity. Qed.
Lemma w_dirties_id a : w_dirties a (a_dirties a) (a_jidx a) = a.
Proof. destruct a; reflexivity. Qed.

Lemma set_obj_spec a x o : WO a ->
  exists l m, set_obj a x o = Some (w_objs a l m) /\ WOl l m /\
    forall y, look (w_objs a l m) y = if decide (x = y) then Some o else look a y.
Proof.
  intros HW. unfold set_obj. destruct (a_oidx a !! x) as [i|] eqn:Hx.
  - destruct (proj1 (HW x i) Hx) as [o0 Ho0]. rewrite Ho0. eexists _, _. split; [reflexivity|]. split.
    + exact (ix_ok_update _ _ _ _ _ o HW Ho0).
    + intros y. exact (ix_read_update id _ _ _ _ _ _ o y (ix_ok_sound _ _ HW) Hx Ho0).
  - eexists _, _. split; [reflexivity|]. split.
    + exact (ix_ok_push _ _ _ o HW Hx).
    + intros y. exact (ix_read_push id _ _ _ _ o y (ix_ok_sound _ _ HW)).
Qed.

Lemma get_obj_spec a x : WO a ->
  exists l m, get_obj a x = Some (w_objs a l m, look a x) /\ WOl l m /\
    forall y, look (w_objs a l m) y = look a y.
Proof.
  intros HW. unfold get_obj, look at 1. destruct (a_oidx a !! x) as [i|] eqn:Hx.
  - destruct (proj1 (HW x i) Hx) as [o ->]. exists (a_objs a), (a_oidx a). rewrite w_objs_id. done.
  - destruct (load (a_pers a) x) as [o|] eqn:Hld.
    + destruct (set_obj_spec a x o HW) as (l & m & -> & HW' & Hlk). exists l, m. split; [done|]. split; [done|].
      intros y. rewrite Hlk. destruct (decide (x = y)) as [<-|]; [|done]. unfold look. rewrite Hx. done.
    + exists (a_objs a), (a_oidx a). rewrite w_objs_id. done.
Qed.

Lemma remove_obj_spec a x : WO a ->
  exists l m, remove_obj a x = w_objs a l m /\ WOl l m /\
    forall y, look (w_objs a l m) y = if decide (x = y) then load (a_pers a) y else look a y.
Proof.
  intros HW. unfold remove_obj. destruct (a_oidx a !! x) as [i|] eqn:Hx.
  - destruct (proj1 (HW x i) Hx) as [ox Hox]. eexists _, _. split; [|split].
    + (* the branch for a list of one element computes what the general one does *)
      destruct (decide _) as [H1|]; [|reflexivity].
      destruct (a_objs a) as [|e [|]]; try done. destruct i; [reflexivity|done].
    + exact (ix_ok_remove _ _ _ _ _ HW Hox).
    + intros y. exact (ix_read_remove id _ _ _ _ _ _ y HW Hox).
  - exists (a_objs a), (a_oidx a). rewrite w_objs_id. split; [done|]. split; [done|].
    intros y. destruct (decide (x = y)) as [<-|]; [|done]. unfold look. rewrite Hx. done.
Qed.

Definition JOKl (l : list (addr * Z)) (m : gmap addr nat) : Prop :=
  forall x i, m !! x = Some i -> exists n, l !! i = Some (x, n).
Definition JOK (a : astate) : Prop := JOKl (a_dirties a) (a_jidx a).

Definition dirties_ok (a : astate) (r : option astate) : Prop :=
  exists l m, r = Some (w_dirties a l m) /\ JOKl l m.

Lemma add_dirty_ok a x : JOK a -> dirties_ok a (add_dirty a x).
Proof.
  intros HJ. unfold add_dirty. destruct (a_jidx a !! x) as [i|] eqn:Hx.
  - destruct (HJ x i Hx) as [n Hn]. rewrite Hn. eexists _, _. split; [reflexivity|].
    exact (ix_sound_update _ _ _ _ _ _ HJ Hn).
  - eexists _, _. split; [reflexivity|]. exact (ix_sound_push _ _ _ _ HJ).
Qed.

Lemma j_append_ok a e : JOK a -> dirties_ok (w_entries a (a_entries a ++ [e])) (j_append a e).
Proof.
  intros HJ. unfold j_append. destruct (dirtied e) as [x|].
  - exact (add_dirty_ok (w_entries a (a_entries a ++ [e])) x HJ).
  - exists (a_dirties a), (a_jidx a). split; [reflexivity|exact HJ].
Qed.

Lemma add_dirty_shape a x a' : add_dirty a x = Some a' -> exists l m, a' = w_dirties a l m.
Proof.
  unfold add_dirty. destruct (a_jidx a !! x); [destruct (a_dirties a !! _); simpl|]; intros [= <-]; eauto.
Qed.

Definition DW (o : obj) : Prop := forall k i, o_didx o !! k = Some i <-> exists v, o_dirty o !! i = Some (k, v).
Definition OW (p : pers) (x : addr) (o : obj) : Prop :=
  forall k i, o_oidx o !! k = Some i -> o_origin o !! i = Some (k, pslot p x k).
Definition oget (p : pers) (x : addr) (o : obj) (k : key) : Z :=
  match o_didx o !! k with
  | Some i => default 0 (snd <$> o_dirty o !! i)
  | None => pslot p x k
  end.

Lemma set_origin_id o : set_origin o (o_origin o) (o_oidx o) = o.
Proof. destruct o; reflexivity. Qed.

Lemma obj_committed_spec p x o k : OW p x o ->
  exists l m, obj_committed p x o k = Some (pslot p x k, set_origin o l m) /\ OW p x (set_origin o l m).
Proof.
  intros HO. unfold obj_committed. destruct (o_oidx o !! k) as [i|] eqn:Hk.
  - rewrite (HO k i Hk). exists (o_origin o), (o_oidx o). rewrite set_origin_id. done.
  - eexists _, _. split; [reflexivity|]. intros k' j. simpl. destruct (decide (k = k')) as [<-|Hne].
    + rewrite lookup_insert. intros [= <-]. apply list_lookup_middle. done.
    + rewrite lookup_insert_ne by done. intros Hk'. apply lookup_app_l_Some, HO, Hk'.
Qed.

Lemma obj_getstate_spec p x o k : DW o -> OW p x o ->
  exists l m, obj_getstate p x o k = Some (oget p x o k, set_origin o l m) /\ OW p x (set_origin o l m).
Proof.
  intros HD HO. unfold obj_getstate, oget. destruct (o_didx o !! k) as [i|] eqn:Hk.
  - destruct (proj1 (HD k i) Hk) as [v ->]. exists (o_origin o), (o_oidx o). rewrite set_origin_id. done.
  - apply obj_committed_spec. exact HO.
Qed.

Lemma obj_setstate_spec p x o k v : DW o ->
  exists l m, obj_setstate o k v = Some (set_dirty o l m) /\ DW (set_dirty o l m) /\
    forall k', oget p x (set_dirty o l m) k' = if decide (k = k') then v else oget p x o k'.
Proof.
  intros HD. unfold obj_setstate. destruct (o_didx o !! k) as [i|] eqn:Hk.
  - destruct (proj1 (HD k i) Hk) as [v0 Hv0]. rewrite Hv0. eexists _, _. split; [reflexivity|]. split.
    + exact (ix_ok_update _ _ _ _ _ v HD Hv0).
    + intros k'. exact (ix_read_update (default 0) _ _ _ _ _ _ v k' (ix_ok_sound _ _ HD) Hk Hv0).
  - eexists _, _. split; [reflexivity|]. split.
    + exact (ix_ok_push _ _ _ v HD Hk).
    + intros k'. exact (ix_read_push (default 0) _ _ _ _ v k' (ix_ok_sound _ _ HD)).
Qed.

Definition aux (a : astate) : list (N * N * Z) * Z * gmap addr unit * gmap (addr * key) unit :=
  (a_logs a, a_logsize a, a_al_addrs a, a_al_slots a).
Definition saux (c : core) : list (N * N * Z) * Z * gmap addr unit * gmap (addr * key) unit :=
  (logs c, logsize c, al_addrs c, al_slots c).

Definition canon (m : gmap key Z) : Prop := forall k, m !! k <> Some 0.

(* so.code: a filled cache is marked dirty, so that commitCode stores the code at Finalise *)
Definition CC (p : pers) (o : obj) : Prop :=
  (o_cache o = 0%N \/ (o_cache o = o_hash o /\ o_dirtycode o = true)) /\
  (o_cache o = 0%N -> o_hash o <> 0%N -> is_Some (p_codes p !! o_hash o)).
Lemma CC_code p o : CC p o -> obj_code p o = o_hash o.
Proof.
  intros [[Hc|[Hc _]] H2]; unfold obj_code.
  - rewrite Hc. simpl. destruct (o_hash o =? 0)%N eqn:E; [apply N.eqb_eq in E; congruence|].
    apply N.eqb_neq in E. destruct (H2 Hc E) as [u ->]. reflexivity.
  - destruct (o_cache o =? 0)%N eqn:E; simpl; [|exact Hc].
    apply N.eqb_eq in E. rewrite <- Hc, E. reflexivity.
Qed.

Definition arel (p : pers) (x : addr) (o : obj) (c : acct) : Prop :=
  o_bal o = bal c /\ o_nonce o = nonce c /\ (o_hash o = code c /\ CC p o) /\ o_suic o = suic c /\
  (forall k, oget p x o k = sget (stor c) k) /\ (forall k, pslot p x k = sget (comm c) k) /\
  DW o /\ OW p x o /\ canon (stor c).
Definition orel (p : pers) (x : addr) (so : option obj) (sc : option acct) : Prop :=
  match so, sc with
  | Some o, Some c => arel p x o c
  | None, None => True
  | _, _ => False
  end.
Definition crel (a : astate) (c : core) : Prop :=
  (forall x, orel (a_pers a) x (look a x) (accts c !! x)) /\ a_refund a = refund c.

Definition NR (p : pers) : Prop := forall x, load p x = None -> forall k, pslot p x k = 0.

Definition sundo (e : entry) (c : core) : core :=
  match e with
  | ECreate x => with_accts c (delete x (accts c))
  | EBalance x prev => with_accts c (alter (fun a => with_bal a prev) x (accts c))
  | ENonce x prev => with_accts c (alter (fun a => with_nonce a prev) x (accts c))
  | EStorage x k prev => with_accts c (alter (fun a => with_stor a (cset k prev (stor a))) x (accts c))
  | ESuicide x prev pb => with_accts c (alter (fun a => with_suic (with_bal a pb) prev) x (accts c))
  | ECode x ph _ => with_accts c (alter (fun a => with_code a ph) x (accts c))
  | ERefund prev => with_refund c prev
  | ELog => {| accts := accts c; refund := refund c; logs := removelast (logs c); logsize := logsize c - 1;
               al_addrs := al_addrs c; al_slots := al_slots c |}
  | EAlAddr x => {| accts := accts c; refund := refund c; logs := logs c; logsize := logsize c;
                    al_addrs := delete x (al_addrs c); al_slots := al_slots c |}
  | EAlSlot x k => {| accts := accts c; refund := refund c; logs := logs c; logsize := logsize c;
                      al_addrs := al_addrs c; al_slots := delete (x, k) (al_slots c) |}
  | _ => c
  end.
Definition sundo_list (l : list entry) (c : core) : core := fold_left (fun c e => sundo e c) l c.

(* under the guard [pstep_ok]: CreateAccount is guarded to accounts that do not exist, so no object is
   ever replaced (EReset); code is identified with its hash ([CC_code]), so the two things a code
   change remembers are one *)
Definition entry_ok (p : pers) (e : entry) : Prop :=
  match e with
  | ECreate x => load p x = None
  | ECode _ ph pc => pc = ph
  | EReset _ _ => False
  | _ => True
  end.

(* entries whose undo dereferences the state object: the account must exist when they are undone *)
Definition needs_live (e : entry) : option addr :=
  match e with
  | EBalance x _ | ENonce x _ | EStorage x _ _ | ECode x _ _ => Some x
  | _ => None
  end.
Fixpoint ex_ok (L : list entry) (c : core) : Prop :=     (* L: newest first *)
  match L with
  | [] => True
  | e :: rest => match needs_live e with Some x => is_Some (accts c !! x) | None => True end /\
                 ex_ok rest (sundo e c)
  end.

Definition mono (l : list (Z * nat)) : Prop :=
  forall i j r1 r2, l !! i = Some r1 -> l !! j = Some r2 -> (i <= j)%nat -> (r1.2 <= r2.2)%nat.
Definition SR (a : astate) (s : sstate) : Prop :=
  Forall2 (fun (r : Z * nat) (sn : Z * core) =>
             r.1 = sn.1 /\ (r.2 <= length (a_entries a))%nat /\
             sn.2 = sundo_list (rev (drop r.2 (a_entries a))) (cur s)) (a_revs a) (snaps s)
  /\ mono (a_revs a).

(* EIP-161: Finalise removes the empty accounts it has touched *)
Definition NE (p : pers) : Prop := forall x o, load p x = Some o -> obj_empty o = false.

Record Inv (a : astate) (s : sstate) : Prop := {
  i_wo : WO a; i_jok : JOK a; i_nr : NR (a_pers a); i_crel : crel a (cur s);
  i_id : a_nextid a = nextid s; i_sr : SR a s;
  i_ent : Forall (entry_ok (a_pers a)) (a_entries a);
  i_ne : NE (a_pers a);
  i_aux : aux a = saux (cur s);
  i_ex : ex_ok (rev (a_entries a)) (cur s) }.

Lemma aux_fields a c : aux a = saux c ->
  a_logs a = logs c /\ a_logsize a = logsize c /\ a_al_addrs a = al_addrs c /\ a_al_slots a = al_slots c.
Proof. intros [= -> -> -> ->]. done. Qed.

Lemma cset_get k v m k' : sget (cset k v m) k' = if decide (k = k') then v else sget m k'.
Proof.
  unfold cset, sget. destruct (v =? 0) eqn:E.
  - apply Z.eqb_eq in E. subst. destruct (decide (k = k')) as [<-|Hne].
    + rewrite lookup_delete. reflexivity.
    + rewrite lookup_delete_ne by done. reflexivity.
  - destruct (decide (k = k')) as [<-|Hne].
    + rewrite lookup_insert. reflexivity.
    + rewrite lookup_insert_ne by done. reflexivity.
Qed.
Lemma cset_canon k v m : canon m -> canon (cset k v m).
Proof.
  intros Hc k'. unfold cset. destruct (v =? 0) eqn:E.
  - destruct (decide (k = k')) as [<-|Hne]; [rewrite lookup_delete; done|rewrite lookup_delete_ne by done; apply Hc].
  - destruct (decide (k = k')) as [<-|Hne]; [|rewrite lookup_insert_ne by done; apply Hc].
    rewrite lookup_insert. intros [= ->]. done.
Qed.
Lemma canon_ext m1 m2 : canon m1 -> canon m2 -> (forall k, sget m1 k = sget m2 k) -> m1 = m2.
Proof.
  intros H1 H2 He. apply map_eq. intros k. specialize (He k). specialize (H1 k). specialize (H2 k). unfold sget in He.
  destruct (m1 !! k), (m2 !! k); simpl in He; congruence.
Qed.
Lemma cset_undo k v m : canon m -> cset k (sget m k) (cset k v m) = m.
Proof.
  intros Hc. apply canon_ext; [auto using cset_canon..|]. intros k'. rewrite !cset_get.
  destruct (decide (k = k')) as [<-|]; reflexivity.
Qed.
Lemma cset_same k m : canon m -> cset k (sget m k) m = m.
Proof.
  intros Hc. apply canon_ext; [auto using cset_canon..|]. intros k'. rewrite cset_get.
  destruct (decide (k = k')) as [<-|]; reflexivity.
Qed.

Lemma arel_intro p x o c : o_bal o = bal c -> o_nonce o = nonce c -> o_hash o = code c -> CC p o -> o_suic o = suic c ->
  (forall k, oget p x o k = sget (stor c) k) -> (forall k, pslot p x k = sget (comm c) k) ->
  DW o -> OW p x o -> canon (stor c) -> arel p x o c.
Proof.
  intros A B C C' D E F G H I. exact (conj A (conj B (conj (conj C C') (conj D (conj E (conj F (conj G (conj H I)))))))).
Qed.
Section arel_parts.
  Context {p : pers} {x : addr} {o : obj} {c : acct} (H : arel p x o c).
  Lemma arel_bal_eq : o_bal o = bal c. Proof. apply H. Qed.
  Lemma arel_nonce_eq : o_nonce o = nonce c. Proof. apply H. Qed.
  Lemma arel_hash_eq : o_hash o = code c. Proof. apply H. Qed.
  Lemma arel_CC : CC p o. Proof. apply H. Qed.
  Lemma arel_suic_eq : o_suic o = suic c. Proof. apply H. Qed.
  Lemma arel_stor k : oget p x o k = sget (stor c) k. Proof. apply H. Qed.
  Lemma arel_comm k : pslot p x k = sget (comm c) k. Proof. apply H. Qed.
  Lemma arel_DW : DW o. Proof. apply H. Qed.
  Lemma arel_OW : OW p x o. Proof. apply H. Qed.
  Lemma arel_canon : canon (stor c). Proof. apply H. Qed.
End arel_parts.

Lemma arel_set_origin p x o c l m : OW p x (set_origin o l m) -> arel p x o c -> arel p x (set_origin o l m) c.
Proof.
  intros HO H.
  exact (arel_intro p x (set_origin o l m) c (arel_bal_eq H) (arel_nonce_eq H) (arel_hash_eq H) (arel_CC H) (arel_suic_eq H)
           (arel_stor H) (arel_comm H) (arel_DW H) HO (arel_canon H)).
Qed.
Lemma arel_bal p x o c b : arel p x o c -> arel p x (set_bal o b) (with_bal c b).
Proof. intros (_ & R). exact (conj eq_refl R). Qed.
Lemma arel_nonce p x o c n : arel p x o c -> arel p x (set_nonce o n) (with_nonce c n).
Proof. intros (A & _ & R). exact (conj A (conj eq_refl R)). Qed.
Lemma arel_suic p x o c b : arel p x o c -> arel p x (set_suic o b) (with_suic c b).
Proof. intros (A & B & C & _ & R). exact (conj A (conj B (conj C (conj eq_refl R)))). Qed.
Lemma arel_code p x o c h : arel p x o c -> arel p x (set_code o h h) (with_code c h).
Proof.
  intros (A & B & _ & R).
  assert (CC p (set_code o h h)) as Hcc.
  { split; simpl; [|intros -> Hc; done].
    destruct (decide (h = 0%N)) as [->|]; [left; reflexivity|right; split; reflexivity]. }
  exact (conj A (conj B (conj (conj eq_refl Hcc) R))).
Qed.
Lemma arel_setstate p x o c k v : arel p x o c ->
  exists l m, obj_setstate o k v = Some (set_dirty o l m) /\
    arel p x (set_dirty o l m) (with_stor c (cset k v (stor c))).
Proof.
  intros H. destruct (obj_setstate_spec p x o k v (arel_DW H)) as (l & m & Hs & HD & Hget). exists l, m. split; [exact Hs|].
  refine (arel_intro p x (set_dirty o l m) (with_stor c (cset k v (stor c))) (arel_bal_eq H) (arel_nonce_eq H)
            (arel_hash_eq H) (arel_CC H) (arel_suic_eq H) _ (arel_comm H) HD (arel_OW H) (cset_canon _ _ _ (arel_canon H))).
  intros k'. simpl. rewrite Hget, cset_get. destruct (decide (k = k')); [reflexivity|apply (arel_stor H)].
Qed.
Lemma arel_mk p x b n h c :
  b = bal c -> n = nonce c -> h = code c -> (h <> 0%N -> is_Some (p_codes p !! h)) -> suic c = false ->
  (forall k, pslot p x k = sget (stor c) k) -> (forall k, pslot p x k = sget (comm c) k) -> canon (stor c) ->
  arel p x (mk_obj b n h) c.
Proof.
  intros -> -> -> Hcd Hs H1 H2 H3.
  refine (arel_intro p x (mk_obj _ _ _) c eq_refl eq_refl eq_refl _ (eq_sym Hs) H1 H2 _ _ H3).
  - split; [left; reflexivity|intros _ Hc; exact (Hcd Hc)].
  - intros k i. simpl. rewrite lookup_empty. split; [done|]. intros [v Hv]. done.
  - intros k i Hk. done.
Qed.
Lemma arel_new p x : NR p -> load p x = None -> arel p x (mk_obj 0 0 0%N) (new_acct 0).
Proof.
  intros HN Hl. refine (arel_mk p x 0 0 0%N (new_acct 0) eq_refl eq_refl eq_refl _ eq_refl _ _ _);
    [intros []; reflexivity|intros k; apply HN, Hl..|intros k [=]].
Qed.

Lemma with_bal_same c : with_bal c (bal c) = c.
Proof. destruct c; reflexivity. Qed.
Lemma with_accts_id c : with_accts c (accts c) = c.
Proof. destruct c; reflexivity. Qed.
Lemma with_cur_id s : with_cur s (cur s) = s.
Proof. destruct s; reflexivity. Qed.

Lemma crel_frame a a' c : a_pers a' = a_pers a -> a_refund a' = a_refund a ->
  (forall y, look a' y = look a y) -> crel a c -> crel a' c.
Proof.
  intros Hp Hf Hl [H1 H2]. split; [|rewrite Hf; exact H2]. intros y. rewrite Hp, Hl. apply H1.
Qed.
Lemma crel_insert a a' c x o' ac' : a_pers a' = a_pers a -> a_refund a' = a_refund a ->
  (forall y, look a' y = if decide (x = y) then Some o' else look a y) ->
  crel a c -> arel (a_pers a) x o' ac' -> crel a' (with_accts c (<[x := ac']> (accts c))).
Proof.
  intros Hp Hf Hl [H1 H2] Har. split; [|rewrite Hf; exact H2]. intros y. rewrite Hp, Hl. simpl.
  destruct (decide (x = y)) as [<-|Hne]; [rewrite lookup_insert; exact Har|rewrite lookup_insert_ne by done; apply H1].
Qed.

Lemma sundo_one e c : sundo_list [e] c = sundo e c.
Proof. reflexivity. Qed.
Lemma sundo_list_app l1 l2 c : sundo_list (l1 ++ l2) c = sundo_list l2 (sundo_list l1 c).
Proof. apply fold_left_app. Qed.
Lemma ex_ok_app L1 : forall L2 c, ex_ok (L1 ++ L2) c <-> ex_ok L1 c /\ ex_ok L2 (sundo_list L1 c).
Proof.
  induction L1 as [|e L1 IH]; intros L2 c; simpl; [tauto|].
  rewrite IH. change (sundo_list (e :: L1) c) with (sundo_list L1 (sundo e c)). tauto.
Qed.

Lemma SR_extend a a' s c2 new : SR a s -> a_revs a' = a_revs a -> a_entries a' = a_entries a ++ new ->
  sundo_list (rev new) c2 = cur s -> SR a' (with_cur s c2).
Proof.
  intros [HF Hm] Hr He Hu. split; rewrite Hr; [|exact Hm]. eapply Forall2_impl; [exact HF|]. simpl.
  intros r sn (H1 & H2 & H3). split; [exact H1|]. rewrite He. split; [rewrite app_length; lia|].
  rewrite drop_app_le, rev_app_distr, sundo_list_app, Hu by exact H2. exact H3.
Qed.
Lemma SR_push a s id n n' : SR a s ->
  SR (w_revs a (a_revs a ++ [(id, length (a_entries a))]) n)
     {| cur := cur s; snaps := snaps s ++ [(id, cur s)]; nextid := n' |}.
Proof.
  intros [HF Hm]. split.
  - apply Forall2_app; [exact HF|]. constructor; [|constructor]. simpl. rewrite drop_all. done.
  - (* the new revision is the deepest *)
    intros i j r1 r2 H1 H2 Hij. apply lookup_app_Some in H1, H2. destruct H2 as [H2|[_ H2]].
    + destruct H1 as [H1|[Hi _]]; [eapply Hm; eauto|]. apply lookup_lt_Some in H2. lia.
    + apply list_lookup_singleton_Some in H2. destruct H2 as [_ <-]. destruct H1 as [H1|[_ H1]].
      * destruct (Forall2_lookup_l _ _ _ _ _ HF H1) as (sn & _ & _ & Hle & _). exact Hle.
      * apply list_lookup_singleton_Some in H1. destruct H1 as [_ <-]. done.
Qed.
Lemma SR_take a s j id n a' s' : SR a s -> a_revs a !! j = Some (id, n) ->
  a_revs a' = take j (a_revs a) -> a_entries a' = take n (a_entries a) ->
  snaps s' = take j (snaps s) -> cur s' = sundo_list (rev (drop n (a_entries a))) (cur s) -> SR a' s'.
Proof.
  intros [HF Hm] Hrj Hr He Hs Hc. split; rewrite Hr; [rewrite Hs, Hc|].
  - apply Forall2_same_length_lookup_2; [exact (Forall2_length _ _ _ (Forall2_take _ _ _ j HF))|].
    intros q r sn [Hq Hqj]%lookup_take_Some [Hsn _]%lookup_take_Some.
    destruct (Forall2_lookup_lr _ _ _ _ _ _ HF Hq Hsn) as (H1 & H2 & H3).
    (* a revision older than the target is not deeper *)
    assert (r.2 <= n)%nat as Hle by (apply (Hm q j r (id, n) Hq Hrj); lia).
    split; [exact H1|]. rewrite He. split; [rewrite take_length; lia|].
    rewrite H3, <- sundo_list_app, <- rev_app_distr. do 2 f_equal.
    rewrite <- (take_drop n (a_entries a)) at 1. rewrite drop_app_le by (rewrite take_length; lia). reflexivity.
  - intros i1 i2 r1 r2 [H1 _]%lookup_take_Some [H2 _]%lookup_take_Some. eapply Hm; eauto.
Qed.

Lemma Inv_extend a s a' c2 new :
  Inv a s -> WO a' -> JOK a' -> a_pers a' = a_pers a -> a_revs a' = a_revs a -> a_nextid a' = a_nextid a ->
  a_entries a' = a_entries a ++ new -> Forall (entry_ok (a_pers a)) new ->
  crel a' c2 -> aux a' = saux c2 ->
  sundo_list (rev new) c2 = cur s -> ex_ok (rev new) c2 ->
  Inv a' (with_cur s c2).
Proof.
  intros HI HW HJ Hp Hr Hn He Hok HC Hx Hu Hex.
  split; simpl; rewrite ?Hp, ?Hn; [exact HW|exact HJ|exact (i_nr _ _ HI)|exact HC|exact (i_id _ _ HI)
    |exact (SR_extend a a' s c2 new (i_sr _ _ HI) Hr He Hu)|rewrite He|exact (i_ne _ _ HI)|exact Hx|rewrite He].
  - apply Forall_app. split; [exact (i_ent _ _ HI)|exact Hok].
  - rewrite rev_app_distr. apply ex_ok_app. rewrite Hu. split; [exact Hex|exact (i_ex _ _ HI)].
Qed.

Lemma Inv_objs a s l m : Inv a s -> WOl l m ->
  (forall y, orel (a_pers a) y (look (w_objs a l m) y) (accts (cur s) !! y)) -> Inv (w_objs a l m) s.
Proof. intros [] HW Hl. split; try assumption. split; [exact Hl|apply i_crel0]. Qed.

Definition sset (s : sstate) (x : addr) (ac : acct) : sstate :=
  with_cur s (with_accts (cur s) (<[x := ac]> (accts (cur s)))).
Lemma sset_sset s x ac ac' : sset (sset s x ac) x ac' = sset s x ac'.
Proof. unfold sset, with_cur, with_accts; simpl. rewrite insert_insert. reflexivity. Qed.
Lemma sset_id s x ac : accts (cur s) !! x = Some ac -> sset s x ac = s.
Proof. intros Hx. unfold sset. rewrite insert_id, with_accts_id by done. apply with_cur_id. Qed.
(* the left side is what [sundo e (cur (sset s x ac'))] computes to for the entries that [alter] *)
Lemma sset_undo s x ac ac' u : accts (cur s) !! x = Some ac -> u ac' = ac ->
  with_accts (cur (sset s x ac')) (alter u x (accts (cur (sset s x ac')))) = cur s.
Proof.
  intros Hx Hu. simpl. rewrite alter_insert, Hu, (insert_id _ x ac) by done. apply (with_accts_id (cur s)).
Qed.

Lemma get_obj_Inv a s x : Inv a s ->
  exists l m, get_obj a x = Some (w_objs a l m, look a x) /\ Inv (w_objs a l m) s /\
    look (w_objs a l m) x = look a x.
Proof.
  intros HI. destruct (get_obj_spec a x (i_wo _ _ HI)) as (l & m & Hg & HW & Hl). exists l, m.
  split; [exact Hg|]. split; [|apply Hl]. apply Inv_objs; [done..|]. intros y. rewrite Hl. apply (i_crel _ _ HI).
Qed.

Lemma set_obj_Inv a s x o ac : Inv a s -> accts (cur s) !! x = Some ac -> arel (a_pers a) x o ac ->
  exists l m, set_obj a x o = Some (w_objs a l m) /\ Inv (w_objs a l m) s.
Proof.
  intros HI Hac Har. destruct (set_obj_spec a x o (i_wo _ _ HI)) as (l & m & Hs & HW & Hl). exists l, m.
  split; [exact Hs|]. apply Inv_objs; [done..|]. intros y. rewrite Hl.
  destruct (decide (x = y)) as [<-|]; [rewrite Hac; exact Har|apply (i_crel _ _ HI)].
Qed.

(* the journalled setters: journal.append(change), then the change itself *)
Lemma journal_set a s x e o' ac' : Inv a s ->
  arel (a_pers a) x o' ac' -> entry_ok (a_pers a) e -> from_option (eq x) True (needs_live e) ->
  sundo e (cur (sset s x ac')) = cur s ->
  exists a2 l m, j_append a e = Some a2 /\ set_obj a2 x o' = Some (w_objs a2 l m) /\
    a_pers a2 = a_pers a /\ Inv (w_objs a2 l m) (sset s x ac').
Proof.
  intros HI Har Hok Hlive Hu. destruct (j_append_ok a e (i_jok _ _ HI)) as (dl & dm & Hj & HJ).
  set (a2 := w_dirties _ dl dm) in *.
  destruct (set_obj_spec a2 x o' (i_wo _ _ HI)) as (l & m & Hs & HW & Hl).
  exists a2, l, m. split; [exact Hj|]. split; [exact Hs|]. split; [reflexivity|].
  refine (Inv_extend a s (w_objs a2 l m) _ [e] HI HW HJ eq_refl eq_refl eq_refl eq_refl
            (Forall_cons_2 _ _ _ Hok (Forall_nil_2 _))
            (crel_insert a (w_objs a2 l m) _ x o' ac' eq_refl eq_refl Hl (i_crel _ _ HI) Har) (i_aux _ _ HI) Hu _).
  split; [|exact I]. destruct (needs_live e); [|exact I]. simpl in Hlive. subst. simpl. rewrite lookup_insert. eauto.
Qed.

Lemma look_none a x : WO a -> look a x = None -> load (a_pers a) x = None.
Proof.
  intros HW. unfold look. destruct (a_oidx a !! x) as [i|] eqn:Hi; [|done].
  destruct (proj1 (HW x i) Hi) as [o ->]. done.
Qed.

Lemma create_Inv a s x : Inv a s -> look a x = None ->
  exists a1, create_obj a x = Some (a1, mk_obj 0 0 0%N, None) /\ a_pers a1 = a_pers a /\
    Inv a1 (sset s x (new_acct 0)).
Proof.
  intros HI Hlx. pose proof (look_none a x (i_wo _ _ HI) Hlx) as Hld.
  pose proof (proj1 (i_crel _ _ HI) x) as Hx. rewrite Hlx in Hx. simpl in Hx.
  destruct (accts (cur s) !! x) eqn:Hac; [done|].
  unfold create_obj. destruct (get_obj_Inv a s x HI) as (l & m & -> & HI1 & _). rewrite Hlx. simpl.
  (* the new object starts from the native balance; [load] makes up an account from a non-zero one,
     and has found none *)
  replace (pbal (a_pers a) x) with 0
    by (unfold load in Hld; destruct (p_keeper (a_pers a) !! x) as [[]|], (pbal (a_pers a) x =? 0) eqn:E; try done;
        symmetry; apply Z.eqb_eq, E).
  destruct (journal_set _ s x (ECreate x) (mk_obj 0 0 0%N) (new_acct 0) HI1) as (a2 & l2 & m2 & Hj & Hs & Hp & HI2).
  - apply arel_new; [exact (i_nr _ _ HI)|exact Hld].
  - exact Hld.
  - exact I.
  - simpl. rewrite delete_insert by done. apply (with_accts_id (cur s)).
  - rewrite Hj. simpl. rewrite Hs. simpl. eauto.
Qed.

Lemma get_or_new_Inv a s x : Inv a s ->
  exists a1 o, get_or_new_obj a x = Some (a1, o) /\ a_pers a1 = a_pers a /\
    arel (a_pers a1) x o (get_or_new (accts (cur s)) x) /\ Inv a1 (sset s x (get_or_new (accts (cur s)) x)).
Proof.
  intros HI. unfold get_or_new_obj, get_or_new. destruct (get_obj_Inv a s x HI) as (l & m & -> & HI1 & Hl1).
  pose proof (proj1 (i_crel _ _ HI) x) as Hx. simpl.
  destruct (look a x) as [o|] eqn:Hlx, (accts (cur s) !! x) as [ac|] eqn:Hac; [|destruct Hx..|]; simpl.
  - exists (w_objs a l m), o. rewrite (sset_id _ _ _ Hac). done.
  - destruct (create_Inv _ s x HI1 Hl1) as (a1 & -> & Hp & HI2). simpl. exists a1, (mk_obj 0 0 0%N).
    rewrite Hp. split; [done|]. split; [done|]. split; [|exact HI2].
    apply arel_new; [exact (i_nr _ _ HI)|exact (look_none a x (i_wo _ _ HI) Hlx)].
Qed.

Lemma set_balance_Inv a s x o ac b : Inv a s -> accts (cur s) !! x = Some ac -> arel (a_pers a) x o ac ->
  exists a', so_set_balance a x o b = Some a' /\ Inv a' (sset s x (with_bal ac b)).
Proof.
  intros HI Hac Har. unfold so_set_balance.
  destruct (journal_set a s x (EBalance x (o_bal o)) (set_bal o b) (with_bal ac b) HI (arel_bal _ _ _ _ b Har) I eq_refl)
    as (a2 & l & m & Hj & Hs & Hp & HI2).
  - rewrite (arel_bal_eq Har). apply (sset_undo s x ac); [exact Hac|destruct ac; reflexivity].
  - rewrite Hj. simpl. eauto.
Qed.

(* [simo]: moreover the adapter does not panic; so for all operations but SubRefund and
   RevertToSnapshot, where both sides may *)
Definition simo (a : astate) (s : sstate) (o : op) : Prop :=
  exists r a' s', astep_opt a o = Some (r, a') /\ spec_step s o = (r, s') /\ Inv a' s'.
Definition sim (a : astate) (s : sstate) (o : op) : Prop :=
  exists r a' s', astep a o = (r, a') /\ spec_step s o = (r, s') /\ Inv a' s'.
(* the end of a simulation proof, once both steps are computed *)
Lemma sim_done {r : out} {a' s'} : Inv a' s' ->
  exists r0 a0 s0, Some (r, a') = Some (r0, a0) /\ (r, s') = (r0, s0) /\ Inv a0 s0.
Proof. intros HI. exact (ex_intro _ r (ex_intro _ a' (ex_intro _ s' (conj eq_refl (conj eq_refl HI))))). Qed.
Lemma simo_sim a s o : simo a s o -> sim a s o.
Proof. intros (r & a' & s' & H1 & H2 & H3). exists r, a', s'. unfold astep. rewrite H1. done. Qed.

Lemma read_sim a s x : Inv a s -> exists a', Inv a' s /\ forall f, read_obj a x f = Some (f (look a x), a').
Proof.
  intros HI. destruct (get_obj_Inv a s x HI) as (l & m & Hg & HI1 & _). exists (w_objs a l m). split; [exact HI1|].
  intros f. unfold read_obj. rewrite Hg. reflexivity.
Qed.

Lemma sim_AddBalance a s x v : Inv a s -> simo a s (AddBalance x v).
Proof.
  intros HI. destruct (get_or_new_Inv a s x HI) as (a1 & o & Hg & _ & Har & HI1).
  unfold simo. simpl. rewrite Hg. simpl. set (ac := get_or_new (accts (cur s)) x) in *.
  change (with_cur s (upd_acct _ _ _)) with (sset s x (with_bal ac (bal ac + v))). destruct (v =? 0) eqn:Ev.
  - apply Z.eqb_eq in Ev. subst v. rewrite Z.add_0_r, with_bal_same. destruct (obj_empty o); [|exact (sim_done HI1)].
    (* a touch is journalled and undone by doing nothing; only the dirties change, once or twice *)
    assert (forall l m, JOKl l m -> Inv (w_dirties (w_entries a1 (a_entries a1 ++ [ETouch x])) l m) (sset s x ac)) as HI2.
    { intros l m HJ. rewrite <- (with_cur_id (sset s x ac)).
      exact (Inv_extend a1 _ (w_dirties (w_entries a1 _) l m) _ [ETouch x] HI1 (i_wo _ _ HI1) HJ eq_refl eq_refl eq_refl eq_refl
               (Forall_cons_2 _ (ETouch x) _ I (Forall_nil_2 _)) (i_crel _ _ HI1) (i_aux _ _ HI1) eq_refl (conj I I)). }
    destruct (j_append_ok a1 (ETouch x) (i_jok _ _ HI1)) as (l & m & -> & HJ). simpl.
    destruct (x =? RIPEMD)%N; [|exact (sim_done (HI2 l m HJ))].
    destruct (add_dirty_ok (w_dirties (w_entries a1 (a_entries a1 ++ [ETouch x])) l m) x HJ) as (l' & m' & -> & HJ').
    exact (sim_done (HI2 l' m' HJ')).
  - destruct (set_balance_Inv a1 _ x o ac (o_bal o + v) HI1 (lookup_insert _ _ _) Har) as (a' & -> & HI2).
    rewrite sset_sset in HI2. rewrite <- (arel_bal_eq Har). exact (sim_done HI2).
Qed.

Lemma look_bal a s x : Inv a s ->
  match look a x with Some o => o_bal o | None => 0 end = bal (get_or_new (accts (cur s)) x).
Proof.
  intros HI. pose proof (proj1 (i_crel _ _ HI) x) as Hx. unfold get_or_new.
  destruct (look a x), (accts (cur s) !! x); [exact (arel_bal_eq Hx)|destruct Hx..|reflexivity].
Qed.

Lemma sim_SubBalance a s x v : Inv a s -> pre_violated a (SubBalance x v) = false -> simo a s (SubBalance x v).
Proof.
  intros HI Hpre. destruct (get_or_new_Inv a s x HI) as (a1 & o & Hg & _ & Har & HI1).
  unfold simo. simpl. rewrite Hg. simpl. set (ac := get_or_new (accts (cur s)) x) in *.
  change (with_cur s (upd_acct _ _ _)) with (sset s x (with_bal ac (bal ac - v))). destruct (v =? 0) eqn:Ev.
  - apply Z.eqb_eq in Ev. subst v. rewrite Z.sub_0_r, with_bal_same. exact (sim_done HI1).
  - (* the guard says that GetBalance answers at least v *)
    destruct (read_sim a s x HI) as (a0 & _ & Hgb).
    unfold pre_violated in Hpre. simpl in Hpre. rewrite Hgb, (look_bal a s x HI) in Hpre.
    apply orb_false_elim in Hpre. destruct Hpre as [Hlt _]. fold ac in Hlt. rewrite <- (arel_bal_eq Har) in Hlt |- *.
    replace (o_bal o - v <? 0) with false by lia.
    destruct (set_balance_Inv a1 _ x o _ (o_bal o - v) HI1 (lookup_insert _ _ _) Har) as (a' & -> & HI2).
    rewrite sset_sset in HI2. exact (sim_done HI2).
Qed.

Lemma sim_SetNonce a s x n : Inv a s -> simo a s (SetNonce x n).
Proof.
  intros HI. destruct (get_or_new_Inv a s x HI) as (a1 & o & Hg & _ & Har & HI1).
  destruct (journal_set a1 _ x (ENonce x (o_nonce o)) (set_nonce o n) _ HI1 (arel_nonce _ _ _ _ n Har) I eq_refl)
    as (a2 & l & m & Hj & Hs & _ & HI2).
  { rewrite (arel_nonce_eq Har). eapply sset_undo; [apply lookup_insert|destruct (get_or_new _ x); reflexivity]. }
  rewrite sset_sset in HI2. unfold simo. simpl. rewrite Hg. simpl. rewrite Hj. simpl. rewrite Hs. exact (sim_done HI2).
Qed.

Lemma sim_SetCode a s x c : Inv a s -> simo a s (SetCode x c).
Proof.
  intros HI. destruct (get_or_new_Inv a s x HI) as (a1 & o & Hg & Hp & Har & HI1).
  destruct (journal_set a1 _ x (ECode x (o_hash o) (obj_code (a_pers a) o)) (set_code o c c) _ HI1 (arel_code _ _ _ _ c Har))
    as (a2 & l & m & Hj & Hs & _ & HI2).
  - rewrite <- Hp. apply CC_code, (arel_CC Har).
  - reflexivity.
  - rewrite (arel_hash_eq Har). eapply sset_undo; [apply lookup_insert|destruct (get_or_new _ x); reflexivity].
  - rewrite sset_sset in HI2. unfold simo. simpl. rewrite Hg. simpl. rewrite Hj. simpl. rewrite Hs. exact (sim_done HI2).
Qed.

Lemma sim_read_slot a s x k (committed : bool) : Inv a s ->
  simo a s (if committed then GetCommittedState x k else GetState x k).
Proof.
  intros HI. destruct (get_obj_Inv a s x HI) as (l & m & Hg & HI1 & _).
  pose proof (proj1 (i_crel _ _ HI) x) as Hx.
  destruct (look a x) as [o|], (accts (cur s) !! x) as [ac|] eqn:Hac; [|destruct Hx..|].
  - assert (exists ol om, (if committed then obj_committed (a_pers a) x o k else obj_getstate (a_pers a) x o k) =
              Some (if committed then sget (comm ac) k else sget (stor ac) k, set_origin o ol om) /\
              OW (a_pers a) x (set_origin o ol om)) as (ol & om & Hgs & HO').
    { destruct committed;
        [rewrite <- (arel_comm Hx); apply obj_committed_spec|rewrite <- (arel_stor Hx); apply obj_getstate_spec];
        first [exact (arel_DW Hx)|exact (arel_OW Hx)]. }
    destruct (set_obj_Inv _ s x (set_origin o ol om) ac HI1 Hac (arel_set_origin _ _ _ _ _ _ HO' Hx)) as (l' & m' & Hs & HI2).
    unfold simo. destruct committed; simpl; rewrite Hg; simpl; rewrite Hgs; simpl; rewrite Hs, Hac; exact (sim_done HI2).
  - unfold simo. destruct committed; simpl; rewrite Hg, Hac; exact (sim_done HI1).
Qed.

Lemma sim_SetState a s x k v : Inv a s -> simo a s (SetState x k v).
Proof.
  intros HI. destruct (get_or_new_Inv a s x HI) as (a1 & o & Hg & Hp & Har & HI1).
  unfold simo. simpl. rewrite Hg. simpl. set (ac := get_or_new (accts (cur s)) x) in *.
  change (with_cur s (upd_acct _ _ _)) with (sset s x (with_stor ac (cset k v (stor ac)))). rewrite <- Hp.
  pose proof (arel_canon Har) as Hcan.
  destruct (obj_getstate_spec (a_pers a1) x o k (arel_DW Har) (arel_OW Har)) as (ol & om & -> & HO1). simpl.
  rewrite (arel_stor Har).
  pose proof (arel_set_origin _ _ _ _ _ _ HO1 Har) as Har1.
  destruct (set_obj_Inv a1 _ x _ ac HI1 (lookup_insert _ _ _) Har1) as (l & m & -> & HI2). simpl.
  destruct (sget (stor ac) k =? v) eqn:Ev.
  - apply Z.eqb_eq in Ev. subst v. rewrite cset_same by exact Hcan.
    replace (with_stor ac (stor ac)) with ac by (destruct ac; reflexivity). exact (sim_done HI2).
  - destruct (arel_setstate _ _ _ _ k v Har1) as (dl & dm & Hss & Har2).
    destruct (journal_set _ _ x (EStorage x k (sget (stor ac) k)) _ _ HI2 Har2 I eq_refl) as (a3 & l3 & m3 & -> & Hs & _ & HI3).
    { eapply sset_undo; [apply lookup_insert|]. simpl. rewrite cset_undo by exact Hcan. destruct ac; reflexivity. }
    simpl. rewrite Hss. simpl. rewrite Hs. rewrite sset_sset in HI3. exact (sim_done HI3).
Qed.

Lemma sim_Suicide a s x : Inv a s -> simo a s (Suicide x).
Proof.
  intros HI. destruct (get_obj_Inv a s x HI) as (l & m & Hg & HI1 & _).
  pose proof (proj1 (i_crel _ _ HI) x) as Hx. unfold simo. simpl. rewrite Hg. simpl.
  destruct (look a x) as [o|], (accts (cur s) !! x) as [ac|] eqn:Hac; [|destruct Hx..|exact (sim_done HI1)].
  pose proof (arel_suic _ _ _ _ true Hx) as Hx'.
  destruct (journal_set _ s x (ESuicide x (o_suic o) (o_bal o)) _ _ HI1 Hx' I I) as (a2 & l2 & m2 & Hj & Hs & Hp & HI2).
  { rewrite (arel_bal_eq Hx), (arel_suic_eq Hx). apply (sset_undo s x ac); [exact Hac|]. destruct ac; reflexivity. }
  rewrite Hj. simpl. rewrite Hs. simpl. simpl in Hp. rewrite <- Hp in Hx'.
  destruct (set_balance_Inv _ _ x _ _ 0 HI2 (lookup_insert _ _ _) Hx') as (a' & -> & HI3).
  rewrite sset_sset in HI3. exact (sim_done HI3).
Qed.

Lemma sim_CreateAccount a s x : Inv a s -> a_exists a x = false -> simo a s (CreateAccount x).
Proof.
  intros HI Hex.
  assert (look a x = None) as Hlx.
  { unfold a_exists in Hex. unfold look. destruct (a_oidx a !! x); [done|]. destruct (load (a_pers a) x); done. }
  destruct (create_Inv a s x HI Hlx) as (a1 & Hc & _ & HI1).
  pose proof (proj1 (i_crel _ _ HI) x) as Hx. rewrite Hlx in Hx.
  unfold simo. simpl. rewrite Hc. simpl. destruct (accts (cur s) !! x); [done|]. exact (sim_done HI1).
Qed.

(* the second hypothesis: [a'] differs from [a] in the journal and the five side fields at most *)
Lemma Inv_side a s a' new c2 :
  Inv a s ->
  a' = w_al (w_logs (w_refund (w_entries a (a_entries a ++ new)) (a_refund a')) (a_logs a') (a_logsize a'))
            (a_al_addrs a') (a_al_slots a') ->
  Forall (entry_ok (a_pers a)) new -> accts c2 = accts (cur s) -> a_refund a' = refund c2 -> aux a' = saux c2 ->
  sundo_list (rev new) c2 = cur s -> ex_ok (rev new) c2 ->
  Inv a' (with_cur s c2).
Proof.
  intros HI Ha Hok Hac Hr Hx Hu Hex.
  refine (Inv_extend a s _ c2 new HI _ _ _ _ _ _ Hok _ Hx Hu Hex); try (rewrite Ha; reflexivity).
  - rewrite Ha. exact (i_wo _ _ HI).
  - rewrite Ha. exact (i_jok _ _ HI).
  - split; [|exact Hr]. intros y. rewrite Hac, Ha. apply (i_crel _ _ HI).
Qed.

Lemma core_eta c : {| accts := accts c; refund := refund c; logs := logs c; logsize := logsize c;
                      al_addrs := al_addrs c; al_slots := al_slots c |} = c.
Proof. destruct c; reflexivity. Qed.

Lemma Inv_refund a s r : Inv a s ->
  Inv (w_refund (w_entries a (a_entries a ++ [ERefund (a_refund a)])) r) (with_cur s (with_refund (cur s) r)).
Proof.
  intros HI. apply (Inv_side a s _ [ERefund (a_refund a)] _ HI);
    [reflexivity|repeat constructor|reflexivity|reflexivity|exact (i_aux _ _ HI)| |exact (conj I I)].
  simpl. rewrite (proj2 (i_crel _ _ HI)). destruct (cur s); reflexivity.
Qed.
Lemma sim_SubRefund a s g : Inv a s -> sim a s (SubRefund g).
Proof.
  intros HI. unfold sim, astep. simpl. rewrite <- (proj2 (i_crel _ _ HI)).
  destruct (a_refund a <? g); [exists OPanic, a, s; done|].
  eexists _, _, _. split; [reflexivity|]. split; [reflexivity|]. apply Inv_refund, HI.
Qed.

Lemma sim_AddLog a s x t : Inv a s -> simo a s (AddLog x t).
Proof.
  intros HI. destruct (aux_fields _ _ (i_aux _ _ HI)) as (Hlg & Hsz & Haa & Hsl). unfold simo. simpl. apply sim_done.
  apply (Inv_side a s _ [ELog] _ HI);
    [reflexivity|repeat constructor|reflexivity|exact (proj2 (i_crel _ _ HI))| | |exact (conj I I)].
  - unfold aux, saux. simpl. rewrite Hlg, Hsz, Haa, Hsl. reflexivity.
  - simpl. rewrite removelast_last, Z.add_simpl_r. apply core_eta.
Qed.

Lemma insert_unit_id {K} `{Countable K} (m : gmap K unit) k u : m !! k = Some u -> <[k := tt]> m = m.
Proof. intros Hk. destruct u. apply insert_id. exact Hk. Qed.

(* AddAddressToAccessList; also the first half of AddSlotToAccessList *)
Lemma al_addr_Inv a s x : Inv a s ->
  exists a1, match a_al_addrs a !! x with
             | Some _ => Some a
             | None => j_append (w_al a (<[x := tt]> (a_al_addrs a)) (a_al_slots a)) (EAlAddr x)
             end = Some a1 /\
    Inv a1 (with_cur s {| accts := accts (cur s); refund := refund (cur s); logs := logs (cur s); logsize := logsize (cur s);
                          al_addrs := <[x := tt]> (al_addrs (cur s)); al_slots := al_slots (cur s) |}).
Proof.
  intros HI. destruct (aux_fields _ _ (i_aux _ _ HI)) as (Hlg & Hsz & Haa & Hsl). rewrite <- Haa.
  destruct (a_al_addrs a !! x) as [u|] eqn:Hx; eexists; (split; [reflexivity|]).
  - rewrite (insert_unit_id _ _ _ Hx), Haa, core_eta, with_cur_id. exact HI.
  - apply (Inv_side a s _ [EAlAddr x] _ HI);
      [reflexivity|repeat constructor|reflexivity|exact (proj2 (i_crel _ _ HI))| | |exact (conj I I)].
    + unfold aux, saux. simpl. rewrite Hlg, Hsz, Hsl. reflexivity.
    + simpl. rewrite delete_insert, Haa by exact Hx. apply core_eta.
Qed.
Lemma al_slot_Inv a s x k : Inv a s ->
  exists a1, match a_al_slots a !! (x, k) with
             | Some _ => Some a
             | None => j_append (w_al a (a_al_addrs a) (<[(x, k) := tt]> (a_al_slots a))) (EAlSlot x k)
             end = Some a1 /\
    Inv a1 (with_cur s {| accts := accts (cur s); refund := refund (cur s); logs := logs (cur s); logsize := logsize (cur s);
                          al_addrs := al_addrs (cur s); al_slots := <[(x, k) := tt]> (al_slots (cur s)) |}).
Proof.
  intros HI. destruct (aux_fields _ _ (i_aux _ _ HI)) as (Hlg & Hsz & Haa & Hsl). rewrite <- Hsl.
  destruct (a_al_slots a !! (x, k)) as [u|] eqn:Hx; eexists; (split; [reflexivity|]).
  - rewrite (insert_unit_id _ _ _ Hx), Hsl, core_eta, with_cur_id. exact HI.
  - apply (Inv_side a s _ [EAlSlot x k] _ HI);
      [reflexivity|repeat constructor|reflexivity|exact (proj2 (i_crel _ _ HI))| | |exact (conj I I)].
    + unfold aux, saux. simpl. rewrite Hlg, Hsz, Haa. reflexivity.
    + simpl. rewrite delete_insert, Hsl by exact Hx. apply core_eta.
Qed.

Lemma sim_AlAddAddr a s x : Inv a s -> simo a s (AlAddAddr x).
Proof.
  intros HI. destruct (al_addr_Inv a s x HI) as (a1 & H1 & HI1). unfold simo. simpl in *.
  destruct (a_al_addrs a !! x); injection H1 as <-; exact (sim_done HI1).
Qed.
Lemma sim_AlAddSlot a s x k : Inv a s -> simo a s (AlAddSlot x k).
Proof.
  intros HI. destruct (al_addr_Inv a s x HI) as (a1 & H1 & HI1). destruct (al_slot_Inv a1 _ x k HI1) as (a2 & H2 & HI2).
  unfold simo. simpl in *. rewrite H1. simpl.
  destruct (a_al_slots a1 !! (x, k)); injection H2 as <-; exact (sim_done HI2).
Qed.

Lemma sim_Snapshot a s : Inv a s -> simo a s Snapshot.
Proof.
  intros HI. unfold simo. simpl. rewrite <- (i_id _ _ HI). destruct HI as [HW HJ HN HC Hid HS He HNE Hx Hex].
  exact (sim_done (Build_Inv (w_revs a (a_revs a ++ [(a_nextid a, length (a_entries a))]) (a_nextid a + 1))
                             {| cur := cur s; snaps := snaps s ++ [(a_nextid a, cur s)]; nextid := a_nextid a + 1 |}
                             HW HJ HN HC eq_refl (SR_push a s _ _ _ HS) He HNE Hx Hex)).
Qed.

(* the loop invariant of journal.revert (the rest of [Inv] is put together again at its end), and
   its frame *)
Definition rrel (a : astate) (c : core) : Prop := WO a /\ JOK a /\ crel a c /\ aux a = saux c.
Definition keeps (a a' : astate) : Prop :=
  a_pers a' = a_pers a /\ a_revs a' = a_revs a /\ a_nextid a' = a_nextid a.

Lemma keeps_refl a : keeps a a.
Proof. repeat split. Qed.
Lemma alter_Some {A} (m : gmap addr A) x f v : m !! x = Some v -> alter f x m = <[x := f v]> m.
Proof. intros Hx. rewrite <- alter_insert, insert_id; done. Qed.

Lemma rrel_get_obj a c x : rrel a c ->
  exists l m, get_obj a x = Some (w_objs a l m, look a x) /\ rrel (w_objs a l m) c.
Proof.
  intros (HW & HJ & HC & Hx). destruct (get_obj_spec a x HW) as (l & m & Hg & HW1 & Hl1). exists l, m.
  exact (conj Hg (conj HW1 (conj HJ (conj (crel_frame a (w_objs a l m) c eq_refl eq_refl Hl1 HC) Hx)))).
Qed.
Lemma rrel_set_obj a c x o' ac' : rrel a c -> arel (a_pers a) x o' ac' ->
  exists l m, set_obj a x o' = Some (w_objs a l m) /\ rrel (w_objs a l m) (with_accts c (<[x := ac']> (accts c))).
Proof.
  intros (HW & HJ & HC & Hx) Har. destruct (set_obj_spec a x o' HW) as (l & m & Hs & HW1 & Hl1). exists l, m.
  exact (conj Hs (conj HW1 (conj HJ (conj (crel_insert a (w_objs a l m) c x o' ac' eq_refl eq_refl Hl1 HC Har) Hx)))).
Qed.
Lemma rrel_aux (a : astate) (c c' : core) f lg sz aa sl : rrel a c ->
  (lg, sz, aa, sl) = f (aux a) -> saux c' = f (saux c) -> accts c' = accts c -> refund c' = refund c ->
  rrel (w_al (w_logs a lg sz) aa sl) c'.
Proof.
  intros (HW & HJ & (HC1 & HC2) & Hx) Ha Hc Hac Hrf. refine (conj HW (conj HJ (conj (conj _ _) _))).
  - intros y. rewrite Hac. apply HC1.
  - rewrite Hrf. exact HC2.
  - rewrite Hc, <- Hx. exact Ha.
Qed.

(* the shape of the four branches of [revert_entry] that go through [live_obj] *)
Lemma revert_obj a c x (f : obj -> option obj) g :
  rrel a c -> is_Some (accts c !! x) ->
  (forall o ac, arel (a_pers a) x o ac -> exists o', f o = Some o' /\ arel (a_pers a) x o' (g ac)) ->
  exists a', ('(a1, o) ← live_obj a x; o' ← f o; set_obj a1 x o') = Some a' /\
    rrel a' (with_accts c (alter g x (accts c))) /\ keeps a a'.
Proof.
  intros HR [ac Hac] Hf. unfold live_obj. destruct (rrel_get_obj a c x HR) as (l & m & -> & HR1). simpl.
  pose proof (proj1 (proj1 (proj2 (proj2 HR))) x) as Hr. rewrite Hac in Hr. destruct (look a x) as [o|]; [|done]. simpl.
  destruct (Hf o ac Hr) as (o' & -> & Har). simpl.
  destruct (rrel_set_obj _ c x o' (g ac) HR1 Har) as (l2 & m2 & -> & HR2). rewrite <- (alter_Some _ _ g _ Hac) in HR2.
  exact (ex_intro _ _ (conj eq_refl (conj HR2 (keeps_refl a)))).
Qed.

(* since fix 4b2faa6 reverting an entry cannot panic and does not touch the dirties *)
Lemma revert_entry_spec a c e : rrel a c -> entry_ok (a_pers a) e ->
  match needs_live e with Some x => is_Some (accts c !! x) | None => True end ->
  exists a', revert_entry a e = Some a' /\ rrel a' (sundo e c) /\ keeps a a'.
Proof.
  intros HR Hok Hlive. pose proof HR as (HW & HJ & HC & Hx).
  destruct e as [x|x prev|x prev pb|x prev|x prev|x k prev|x ph pc|prev| |x|x|x k]; simpl in Hok, Hlive |- *; [|done|..].
  - (* ECreate *) destruct (remove_obj_spec a x HW) as (l & m & -> & HW' & Hl).
    eexists. split; [reflexivity|]. split; [|exact (keeps_refl a)]. refine (conj HW' (conj HJ (conj _ Hx))).
    split; [|exact (proj2 HC)]. intros y. simpl. rewrite Hl. destruct (decide (x = y)) as [<-|Hne].
    + rewrite lookup_delete, Hok. exact I.
    + rewrite lookup_delete_ne by done. apply (proj1 HC).
  - (* ESuicide: also of an absent account, where it does nothing *)
    destruct (rrel_get_obj a c x HR) as (l & m & -> & HR1). simpl. pose proof (proj1 HC x) as Hr.
    destruct (look a x) as [o|], (accts c !! x) as [ac|] eqn:Hac; [|destruct Hr..|].
    + destruct (rrel_set_obj _ c x _ _ HR1 (arel_suic _ _ _ _ prev Hr)) as (l2 & m2 & -> & HR2). simpl.
      destruct (rrel_set_obj _ _ x (set_bal (set_suic o prev) pb) _ HR2 (arel_suic _ _ _ _ prev (arel_bal _ _ _ _ pb Hr)))
        as (l3 & m3 & Hs & HR3).
      simpl in HR3. rewrite insert_insert, <- (alter_Some _ _ (fun a => with_suic (with_bal a pb) prev) _ Hac) in HR3.
      exact (ex_intro _ _ (conj Hs (conj HR3 (keeps_refl a)))).
    + rewrite alter_id, with_accts_id by (intros ac; rewrite Hac; discriminate). exact (ex_intro _ _ (conj eq_refl (conj HR1 (keeps_refl a)))).
  - (* EBalance *)
    apply (revert_obj a c x (fun o => Some (set_bal o prev)) (fun ac => with_bal ac prev) HR Hlive).
    intros o ac Har. exact (ex_intro _ (set_bal o prev) (conj eq_refl (arel_bal _ _ _ _ prev Har))).
  - (* ENonce *)
    apply (revert_obj a c x (fun o => Some (set_nonce o prev)) (fun ac => with_nonce ac prev) HR Hlive).
    intros o ac Har. exact (ex_intro _ (set_nonce o prev) (conj eq_refl (arel_nonce _ _ _ _ prev Har))).
  - (* EStorage *)
    apply (revert_obj a c x (fun o => obj_setstate o k prev) (fun ac => with_stor ac (cset k prev (stor ac))) HR Hlive).
    intros o ac Har. destruct (arel_setstate _ _ _ _ k prev Har) as (dl & dm & ? & ?). eauto.
  - (* ECode *)
    apply (revert_obj a c x (fun o => Some (set_code o ph pc)) (fun ac => with_code ac ph) HR Hlive).
    intros o ac Har. subst pc. exact (ex_intro _ (set_code o ph ph) (conj eq_refl (arel_code _ _ _ _ ph Har))).
  - (* ERefund *) eexists. split; [reflexivity|]. split; [|exact (keeps_refl a)].
    exact (conj HW (conj HJ (conj (conj (proj1 HC) eq_refl) Hx))).
  - (* ELog *)
    eexists. split; [reflexivity|]. split; [|exact (keeps_refl a)].
    apply (rrel_aux a c _ (fun '(lg, sz, aa, sl) => (removelast lg, sz - 1, aa, sl)) _ _ _ _ HR); reflexivity.
  - (* ETouch *) exact (ex_intro _ a (conj eq_refl (conj HR (keeps_refl a)))).
  - (* EAlAddr *)
    eexists. split; [reflexivity|]. split; [|exact (keeps_refl a)].
    apply (rrel_aux a c _ (fun '(lg, sz, aa, sl) => (lg, sz, delete x aa, sl)) _ _ _ _ HR); reflexivity.
  - (* EAlSlot *)
    eexists. split; [reflexivity|]. split; [|exact (keeps_refl a)].
    apply (rrel_aux a c _ (fun '(lg, sz, aa, sl) => (lg, sz, aa, delete (x, k) sl)) _ _ _ _ HR); reflexivity.
Qed.

(* journal.revert after an entry that dirtied x: substractDirty, then deleteDirty once the count is
   zero; since fix 4b2faa6 slice and index map stay in step *)
Lemma sub_dirty_ok a x : JOK a -> dirties_ok a (sub_dirty a x).
Proof.
  intros HJ. unfold sub_dirty. destruct (a_jidx a !! x) as [i|] eqn:Hx.
  - destruct (HJ x i Hx) as [n Hn]. rewrite Hn. simpl. destruct (n =? 0).
    + exists (a_dirties a), (a_jidx a). rewrite w_dirties_id. done.
    + eexists _, _. split; [reflexivity|]. exact (ix_sound_update _ _ _ _ _ _ HJ Hn).
  - exists (a_dirties a), (a_jidx a). rewrite w_dirties_id. done.
Qed.
Lemma delete_dirty_ok a x : JOK a -> dirties_ok a (delete_dirty a x).
Proof.
  intros HJ. unfold delete_dirty. destruct (a_jidx a !! x) as [i|] eqn:Hx.
  - destruct (HJ x i Hx) as [n Hn]. rewrite decide_True by (eapply lookup_lt_Some, Hn).
    eexists _, _. split; [reflexivity|]. exact (ix_sound_remove _ _ _ _ HJ Hx).
  - exists (a_dirties a), (a_jidx a). rewrite w_dirties_id. done.
Qed.
Lemma undirty_ok a x : JOK a ->
  dirties_ok a (a' ← sub_dirty a x; n ← get_dirty a' x; if n =? 0 then delete_dirty a' x else Some a').
Proof.
  intros HJ. destruct (sub_dirty_ok a x HJ) as (l & m & -> & HJ1). simpl.
  assert (exists n, get_dirty (w_dirties a l m) x = Some n) as (n & ->).
  { unfold get_dirty. simpl. destruct (m !! x) as [i|] eqn:Hx; [|eauto]. destruct (HJ1 x i Hx) as [n ->]. simpl. eauto. }
  simpl. destruct (n =? 0); [|exact (ex_intro _ l (ex_intro _ m (conj eq_refl HJ1)))].
  exact (delete_dirty_ok (w_dirties a l m) x HJ1).
Qed.

Lemma revert_list_spec L : forall a c, rrel a c -> Forall (entry_ok (a_pers a)) L -> ex_ok L c ->
  exists a', revert_list a L = Some a' /\ rrel a' (sundo_list L c) /\ keeps a a'.
Proof.
  induction L as [|e L IH]; intros a c HR Hok Hex; simpl; [exact (ex_intro _ a (conj eq_refl (conj HR (keeps_refl a))))|].
  apply Forall_cons_1 in Hok as [Hoe HoL]. destruct Hex as [Hlive Hex].
  destruct (revert_entry_spec a c e HR Hoe Hlive) as (a1 & -> & (HW1 & HJ1 & HC1 & Hx1) & (Hp & Hr & Hn)). simpl.
  assert (forall l m, JOKl l m -> exists a', revert_list (w_dirties a1 l m) L = Some a' /\
            rrel a' (sundo_list L (sundo e c)) /\ keeps a a') as Hrest.
  { intros l m HJ2. destruct (IH (w_dirties a1 l m) (sundo e c)) as (a' & ? & ? & (? & ? & ?));
      [done|simpl; rewrite Hp; exact HoL|exact Hex|].
    exists a'. unfold keeps. simpl in *. split; [done|]. split; [done|]. repeat split; congruence. }
  destruct (dirtied e) as [x|].
  - destruct (undirty_ok a1 x HJ1) as (l & m & -> & HJ2). apply Hrest, HJ2.
  - rewrite <- (w_dirties_id a1). apply Hrest, HJ1.
Qed.

Lemma find_agree id : forall (revs : list (Z * nat)) (snaps : list (Z * core)) i,
  Forall2 (fun r sn => r.1 = sn.1) revs snaps ->
  match find_rev id revs i with
  | Some (j, n) => exists c', find_snap id snaps i = Some (j, c') /\ (i <= j)%nat /\
                     revs !! (j - i)%nat = Some (id, n) /\ snaps !! (j - i)%nat = Some (id, c')
  | None => find_snap id snaps i = None
  end.
Proof.
  induction revs as [|[j0 n0] revs IH]; intros snaps i HF.
  - apply Forall2_nil_inv_l in HF as ->. reflexivity.
  - apply Forall2_cons_inv_l in HF as ([j1 c1] & snaps' & Hh & Ht & ->). simpl in Hh. subst j1. simpl.
    destruct (j0 =? id) eqn:E.
    + apply Z.eqb_eq in E. subst. exists c1. rewrite Nat.sub_diag. simpl. repeat split; lia || reflexivity.
    + destruct (id <? j0); [reflexivity|].
      specialize (IH snaps' (S i) Ht). destruct (find_rev id revs (S i)) as [[j n]|]; [|exact IH].
      destruct IH as (c' & H1 & H2 & H3 & H4). exists c'. split; [exact H1|]. split; [lia|].
      replace (j - i)%nat with (S (j - S i)) by lia. simpl. split; assumption.
Qed.

Lemma sim_Revert a s id : Inv a s -> sim a s (RevertToSnapshot id).
Proof.
  intros HI. destruct (i_sr _ _ HI) as [HF Hm].
  assert (Forall2 (fun r sn => r.1 = sn.1) (a_revs a) (snaps s)) as HF1.
  { eapply Forall2_impl; [exact HF|]. intros r sn (H & _). exact H. }
  pose proof (find_agree id (a_revs a) (snaps s) 0%nat HF1) as Hfa.
  unfold sim, astep. simpl. destruct (find_rev id (a_revs a) 0) as [[j n]|]; simpl.
  2: { rewrite Hfa. exists OPanic, a, s. done. }
  destruct Hfa as (c' & -> & _ & Hrj & Hsj). rewrite Nat.sub_0_r in Hrj, Hsj.
  destruct (Forall2_lookup_lr _ _ _ _ _ _ HF Hrj Hsj) as (_ & _ & Hc'). simpl in Hc'. subst c'.
  unfold j_revert. set (L := rev (drop n (a_entries a))) in *.
  assert (ex_ok L (cur s) /\ ex_ok (rev (take n (a_entries a))) (sundo_list L (cur s))) as [HexL HexR].
  { apply ex_ok_app. unfold L. rewrite <- rev_app_distr, take_drop. exact (i_ex _ _ HI). }
  destruct (revert_list_spec L a (cur s)) as (a1 & -> & (HW1 & HJ1 & HC1 & Hx1) & (Hp1 & Hr1 & Hn1)).
  { exact (conj (i_wo _ _ HI) (conj (i_jok _ _ HI) (conj (i_crel _ _ HI) (i_aux _ _ HI)))). }
  { apply Forall_rev, Forall_drop, (i_ent _ _ HI). }
  { exact HexL. }
  eexists OUnit, _, _. split; [reflexivity|]. split; [reflexivity|].
  split; simpl;
    [exact HW1|exact HJ1|rewrite Hp1; exact (i_nr _ _ HI)|exact HC1|rewrite Hn1; exact (i_id _ _ HI)|
    |rewrite Hp1; apply Forall_take, (i_ent _ _ HI)|rewrite Hp1; exact (i_ne _ _ HI)|exact Hx1|exact HexR].
  apply (SR_take a s j id n _ _ (i_sr _ _ HI) Hrj); [simpl; rewrite Hr1|..]; reflexivity.
Qed.
Definition agree_at (x : addr) (p p' : pers) : Prop :=
  p_keeper p' !! x = p_keeper p !! x /\ p_bal p' !! x = p_bal p !! x /\
  forall k, p_cstore p' !! (x, k) = p_cstore p !! (x, k).
Lemma pslot_agree x p p' k : agree_at x p p' -> pslot p' x k = pslot p x k.
Proof. intros (_ & _ & C). unfold pslot. rewrite C. reflexivity. Qed.
Lemma pbal_agree x p p0 : agree_at x p p0 -> pbal p0 x = pbal p x.
Proof. intros (_ & B & _). unfold pbal. rewrite B. reflexivity. Qed.
Lemma oget_agree x p p0 o k : agree_at x p p0 -> oget p0 x o k = oget p x o k.
Proof. intros A. unfold oget. destruct (o_didx o !! k); [reflexivity|apply pslot_agree; exact A]. Qed.
Lemma OW_agree x p p0 o : agree_at x p p0 -> OW p x o -> OW p0 x o.
Proof. intros A H k i Hk. rewrite (pslot_agree _ _ _ k A). apply H. exact Hk. Qed.

(* all that [arel] and [fresh_ok] at x can see; the code store is not per address, so it may grow *)
Definition ext_at (x : addr) (p p' : pers) : Prop :=
  agree_at x p p' /\ forall h, is_Some (p_codes p !! h) -> is_Some (p_codes p' !! h).
Lemma ext_refl x p : ext_at x p p.
Proof. repeat split. intros h Hh. exact Hh. Qed.
Lemma ext_trans x p1 p2 p3 : ext_at x p1 p2 -> ext_at x p2 p3 -> ext_at x p1 p3.
Proof.
  intros [(A & B & C) K] [(A' & B' & C') K']. repeat split; [congruence|congruence|intros k; rewrite C', C; reflexivity|].
  intros h Hh. apply K', K, Hh.
Qed.
Lemma arel_ext p p' x o c : arel p x o c -> ext_at x p p' -> arel p' x o c.
Proof.
  intros H [Ha K]. destruct (arel_CC H) as [C1 C2].
  refine (arel_intro p' x o c (arel_bal_eq H) (arel_nonce_eq H) (arel_hash_eq H) (conj C1 _) (arel_suic_eq H)
            _ _ (arel_DW H) (OW_agree _ _ _ _ Ha (arel_OW H)) (arel_canon H)).
  - intros H1 H2. apply K, C2; assumption.
  - intros k. rewrite (oget_agree _ _ _ _ k Ha). apply (arel_stor H).
  - intros k. rewrite (pslot_agree _ _ _ k Ha). apply (arel_comm H).
Qed.

Definition fresh_ok (p : pers) (x : addr) (sc : option acct) : Prop :=
  orel p x (load p x) sc /\ (load p x = None -> forall k, pslot p x k = 0) /\
  (forall o, load p x = Some o -> obj_empty o = false).
Lemma fresh_ok_ext p p' x sc : fresh_ok p x sc -> ext_at x p p' -> fresh_ok p' x sc.
Proof.
  intros (H1 & H2 & H3) E. pose proof (proj1 E) as Ha.
  assert (load p' x = load p x) as Hl by (unfold load; rewrite (pbal_agree _ _ _ Ha), (proj1 Ha); reflexivity).
  unfold fresh_ok. rewrite Hl. split; [|split; [|exact H3]].
  - destruct (load p x), sc; [exact (arel_ext _ _ _ _ _ H1 E)|exact H1..].
  - intros Hn k. rewrite (pslot_agree _ _ _ k Ha). apply H2, Hn.
Qed.

(* A fold over items with an address, each extending the state at every address but its own:
   Finalise over the state objects, the starting state over its accounts. *)
Section keyed_fold.
  Context {A : Type} (key : A -> addr) (step : pers -> A -> pers).
  Hypothesis step_ext : forall p e x, x <> key e -> ext_at x p (step p e).

  Lemma fold_absent l : forall p x, x ∉ key <$> l -> ext_at x p (fold_left step l p).
  Proof.
    induction l as [|e l IH]; intros p x Hx; simpl; [apply ext_refl|].
    rewrite fmap_cons, not_elem_of_cons in Hx. destruct Hx as [Hne Hx].
    exact (ext_trans _ _ _ _ (step_ext p e x Hne) (IH _ x Hx)).
  Qed.
  Lemma fold_present l : forall p e, NoDup (key <$> l) -> e ∈ l ->
    exists p0, ext_at (key e) p p0 /\ ext_at (key e) (step p0 e) (fold_left step l p).
  Proof.
    induction l as [|e0 l IH]; intros p e Hnd Hin; [destruct (not_elem_of_nil _ Hin)|].
    rewrite fmap_cons, NoDup_cons in Hnd. destruct Hnd as [Hnotin Hnd]. simpl.
    apply elem_of_cons in Hin. destruct Hin as [->|Hin].
    - exists p. split; [apply ext_refl|apply fold_absent, Hnotin].
    - assert (key e <> key e0) as Hne by (intros Heq; apply Hnotin; rewrite <- Heq; apply elem_of_list_fmap; eauto).
      destruct (IH (step p e0) e Hnd Hin) as (p0 & E0 & E1). exists p0. split; [|exact E1].
      exact (ext_trans _ _ _ _ (step_ext p e0 _ Hne) E0).
  Qed.
  Lemma fold_fresh l p x sc : NoDup (key <$> l) ->
    (x ∉ key <$> l -> fresh_ok p x sc) ->
    (forall e p0, e ∈ l -> key e = x -> ext_at x p p0 -> fresh_ok (step p0 e) x sc) ->
    fresh_ok (fold_left step l p) x sc.
  Proof.
    intros Hnd Hout Hin. destruct (decide (x ∈ key <$> l)) as [(e & -> & He)%elem_of_list_fmap|Hx].
    - destruct (fold_present l p e Hnd He) as (p0 & E0 & E1). exact (fresh_ok_ext _ _ _ _ (Hin e p0 He eq_refl E0) E1).
    - exact (fresh_ok_ext _ _ _ _ (Hout Hx) (fold_absent l p x Hx)).
  Qed.
End keyed_fold.

Lemma Inv_fresh p c nid sz : (forall x, fresh_ok p x (accts c !! x)) -> refund c = 0 -> saux c = ([], sz, ∅, ∅) ->
  Inv {| a_pers := p; a_objs := []; a_oidx := ∅; a_entries := []; a_dirties := []; a_jidx := ∅;
         a_revs := []; a_nextid := nid; a_refund := 0; a_logs := []; a_logsize := sz; a_al_addrs := ∅; a_al_slots := ∅ |}
      {| cur := c; snaps := []; nextid := nid |}.
Proof.
  intros Hall Hr Hx. split; simpl; [|intros x i [=]| | |reflexivity| |constructor| |symmetry; exact Hx|exact I].
  - intros x i. simpl. rewrite lookup_empty. split; [intros [=]|intros [o [=]]].
  - intros x Hl. apply (Hall x), Hl.
  - split; [|symmetry; exact Hr]. intros x. apply (Hall x).
  - split; [constructor|]. intros i j r1 r2 [=].
  - intros x o. apply (Hall x).
Qed.

Lemma fresh_ok_none p x : load p x = None -> (forall k, pslot p x k = 0) -> fresh_ok p x None.
Proof. intros Hl Hz. unfold fresh_ok. rewrite Hl. done. Qed.
Lemma fresh_ok_some p x b n h c :
  load p x = Some (mk_obj b n h) -> b = bal c -> n = nonce c -> h = code c ->
  (h <> 0%N -> is_Some (p_codes p !! h)) -> suic c = false -> comm c = stor c ->
  (forall k, pslot p x k = sget (stor c) k) -> canon (stor c) -> acct_empty c = false ->
  fresh_ok p x (Some c).
Proof.
  intros Hl -> -> -> Hcd Hs Hcm Hst Hcan Hne. unfold fresh_ok. rewrite Hl.
  split; [|split; [intros [=]|intros o [= <-]; exact Hne]].
  refine (arel_mk p x _ _ _ c eq_refl eq_refl eq_refl Hcd Hs Hst _ Hcan). rewrite Hcm. exact Hst.
Qed.

Lemma load_shape p x o0 : load p x = Some o0 -> exists n h, o0 = mk_obj (pbal p x) n h.
Proof.
  unfold load. destruct (p_keeper p !! x) as [[n h]|]; [intros [= <-]; eauto|].
  destruct (pbal p x =? 0); [done|]. intros [= <-]. eauto.
Qed.

Definition promote (a : acct) : acct :=
  {| bal := bal a; nonce := nonce a; code := code a; stor := stor a; comm := stor a; suic := false |}.

Lemma fresh_ok_keep p x o0 ac : NE p -> load p x = Some o0 -> arel p x o0 ac ->
  fresh_ok p x (if suic ac || acct_empty ac then None else Some (promote ac)).
Proof.
  intros HN Hl (Ab & An & (Ah & Hcc) & As & Hst & _ & _ & _ & Hcan). pose proof (HN x o0 Hl) as Hne.
  destruct (load_shape _ _ _ Hl) as (n & h & ->). simpl in *.
  assert (acct_empty ac = false) as Hne' by (unfold acct_empty; rewrite <- Ab, <- An, <- Ah; exact Hne).
  rewrite <- As, Hne'. refine (fresh_ok_some p x (pbal p x) n h (promote ac) Hl Ab An Ah _ eq_refl eq_refl Hst Hcan Hne').
  intros Hh. exact (proj2 Hcc eq_refl Hh).
Qed.

Lemma commit_slot_frame x o p kv :
  exists m, commit_slot x o p kv = p_set_cstore p m /\
    forall y k, (y, k) <> (x, kv.1) -> m !! (y, k) = p_cstore p !! (y, k).
Proof.
  destruct kv as [k0 v0]. unfold commit_slot.
  assert (exists m, (if v0 =? 0 then p_set_cstore p (delete (x, k0) (p_cstore p)) else p) = p_set_cstore p m /\
            forall y k, (y, k) <> (x, k0) -> m !! (y, k) = p_cstore p !! (y, k)) as (m1 & -> & H1).
  { destruct (v0 =? 0); [|exists (p_cstore p); destruct p; done].
    eexists. split; [reflexivity|]. intros y k Hne. apply lookup_delete_ne. intros E. exact (Hne (eq_sym E)). }
  destruct (o_oidx o !! k0) as [i|]; [|eauto]. destruct (v0 =? 0); [eauto|].
  destruct (o_origin o !! i) as [e|]; [|eauto]. destruct (e.2 =? v0); [eauto|].
  eexists. split; [reflexivity|]. intros y k Hne. simpl.
  rewrite lookup_insert_ne by (intros E; exact (Hne (eq_sym E))). apply H1, Hne.
Qed.
(* commitState silently skips a non-zero slot whose original is not cached: hence the third
   hypothesis.  Two states: [OW] is known of p0, the state before commitState; the fold has moved on
   to p but has not touched slot k0 before it reaches it. *)
Lemma commit_slot_own x o p p0 k0 v0 :
  OW p0 x o -> pslot p x k0 = pslot p0 x k0 ->
  (v0 = 0 \/ is_Some (o_oidx o !! k0)) ->
  pslot (commit_slot x o p (k0, v0)) x k0 = v0.
Proof.
  intros HO Hsame Hc. unfold commit_slot, pslot. destruct (v0 =? 0) eqn:Ev.
  - apply Z.eqb_eq in Ev. subst. destruct (o_oidx o !! k0); simpl; rewrite lookup_delete; reflexivity.
  - apply Z.eqb_neq in Ev. destruct Hc as [->|[i Hi]]; [done|]. rewrite Hi.
    rewrite (HO k0 i Hi). simpl. destruct (pslot p0 x k0 =? v0) eqn:E2.
    + apply Z.eqb_eq in E2. unfold pslot in Hsame. rewrite Hsame. exact E2.
    + simpl. rewrite lookup_insert. reflexivity.
Qed.

Lemma commit_fold_frame x o l : forall p,
  exists m, fold_left (commit_slot x o) l p = p_set_cstore p m /\
    forall y k, (y = x -> k ∉ l.*1) -> m !! (y, k) = p_cstore p !! (y, k).
Proof.
  induction l as [|[k0 v0] l IH]; intros p; cbn [fold_left]; [exists (p_cstore p); destruct p; done|].
  destruct (commit_slot_frame x o p (k0, v0)) as (m1 & -> & F).
  destruct (IH (p_set_cstore p m1)) as (m2 & -> & G). exists m2. split; [reflexivity|]. intros y k Hk.
  rewrite G, F; [done|intros [= -> ->]|intros ->]; specialize (Hk eq_refl); rewrite fmap_cons, not_elem_of_cons in Hk; tauto.
Qed.
Lemma commit_fold_own x o p0 l : forall p i k v, NoDup l.*1 -> l !! i = Some (k, v) ->
  OW p0 x o -> pslot p x k = pslot p0 x k -> (v = 0 \/ is_Some (o_oidx o !! k)) ->
  pslot (fold_left (commit_slot x o) l p) x k = v.
Proof.
  induction l as [|[k0 v0] l IH]; intros p i k v Hnd Hi HO Hs Hc; [done|].
  rewrite fmap_cons, NoDup_cons in Hnd. destruct Hnd as [Hk0 Hnd]. cbn [fold_left]. destruct i as [|i]; simpl in Hi.
  - injection Hi as -> ->. etrans; [|exact (commit_slot_own x o p p0 k v HO Hs Hc)].
    destruct (commit_fold_frame x o l (commit_slot x o p (k, v))) as (m & -> & F). unfold pslot. f_equal. apply F. done.
  - apply (IH _ i k v Hnd Hi HO); [|exact Hc]. rewrite <- Hs. destruct (commit_slot_frame x o p (k0, v0)) as (m & -> & F).
    unfold pslot. f_equal. apply F. intros [= ->].
    apply Hk0, (elem_of_list_fmap_1 fst _ (k0, v)), elem_of_list_lookup_2 with i, Hi.
Qed.

Lemma slots_cachedb_spec o : slots_cachedb o = true ->
  forall i k v, o_dirty o !! i = Some (k, v) -> v = 0 \/ is_Some (o_oidx o !! k).
Proof.
  unfold slots_cachedb. rewrite forallb_forall. intros H i k v Hi.
  assert (In (k, v) (o_dirty o)) as Hin by (apply elem_of_list_In; eapply elem_of_list_lookup_2; eauto).
  specialize (H _ Hin). simpl in H. apply orb_prop in H. destruct H as [H|H].
  - left. apply Z.eqb_eq. exact H.
  - right. apply bool_decide_eq_true in H. exact H.
Qed.

Lemma commit_state_own x o p : DW o -> OW p x o -> slots_cachedb o = true ->
  forall k, pslot (commit_state x o p) x k = oget p x o k.
Proof.
  intros HD HO Hc k. unfold commit_state, oget. destruct (o_didx o !! k) as [i|] eqn:Hk.
  - destruct (proj1 (HD k i) Hk) as [v Hv]. rewrite Hv. simpl.
    apply (commit_fold_own x o p _ p i k v); [exact (ix_ok_NoDup _ _ HD)|done..|]. eapply slots_cachedb_spec; eauto.
  - destruct (commit_fold_frame x o (o_dirty o) p) as (m & -> & F). unfold pslot. f_equal. apply F.
    intros _ ([k' v] & -> & Hin)%elem_of_list_fmap.
    apply elem_of_list_lookup in Hin. destruct Hin as [i Hi].
    assert (o_didx o !! k' = Some i) by (apply HD; eauto). simpl in *. congruence.
Qed.

Lemma finalise_obj_ext D p e x : x <> e.1 -> ext_at x p (finalise_obj D p e).
Proof.
  destruct e as [y o]. intros Hne. unfold finalise_obj, commit_state. destruct (o_suic o || _).
  - split; [|intros h H; exact H]. split; simpl; [rewrite lookup_delete_ne by done; reflexivity|].
    split; [rewrite lookup_insert_ne by done; reflexivity|reflexivity].
  - destruct (bool_decide _); [|apply ext_refl].
    destruct (commit_fold_frame y o (o_dirty o) p) as (m & -> & F). split; [split; simpl|intros h H; simpl].
    + apply lookup_insert_ne. done.
    + split; [apply lookup_insert_ne; done|]. intros k. apply F. done.
    + destruct (negb (o_cache o =? 0)%N && o_dirtycode o); [|exact H].
      destruct (decide (o_hash o = h)) as [->|]; [rewrite lookup_insert; eauto|rewrite lookup_insert_ne by done; exact H].
Qed.

Lemma fin_accts_lookup m x :
  finalise_accts m !! x = ac ← m !! x; if suic ac || acct_empty ac then None else Some (promote ac).
Proof.
  unfold finalise_accts. rewrite lookup_fmap, map_filter_lookup. destruct (m !! x) as [ac|]; [|done]. simpl.
  destruct (suic ac), (acct_empty ac); simpl; rewrite ?option_guard_True, ?option_guard_False by (intros []; done); done.
Qed.

Lemma has_slots_false p x : has_slots p x = false -> forall k, pslot p x k = 0.
Proof.
  intros H k. unfold pslot. destruct (p_cstore p !! (x, k)) as [v|] eqn:Hk; [|reflexivity].
  exfalso. unfold has_slots in H.
  assert (existsb (fun e : addr * key * Z => (e.1.1 =? x)%N) (map_to_list (p_cstore p)) = true) as Hc; [|congruence].
  apply existsb_exists. exists ((x, k), v). split; [|simpl; apply N.eqb_refl].
  apply elem_of_list_In. apply elem_of_map_to_list. exact Hk.
Qed.

Lemma arel_clean p x o ac : arel p x o ac -> obj_cleanb p x o = true ->
  exists o0, load p x = Some o0 /\ arel p x o0 ac.
Proof.
  intros (Ab & An & (Ah & Hcc) & As & Hst & Hcm & HD & _ & Hcan). unfold obj_cleanb.
  destruct (load p x) as [o0|] eqn:Hl; [|done].
  intros [[[[[Eb En]%andb_prop Eh]%andb_prop Es]%andb_prop Ec]%andb_prop Hcl]%andb_prop.
  apply Z.eqb_eq in Eb, En. apply N.eqb_eq in Eh. apply negb_true_iff in Es. rewrite forallb_forall in Hcl.
  exists o0. split; [done|]. destruct (load_shape _ _ _ Hl) as (n0 & h0 & ->). simpl in Eb, En, Eh.
  refine (arel_mk p x _ _ _ ac (eq_trans (eq_sym Eb) Ab) (eq_trans (eq_sym En) An) (eq_trans (eq_sym Eh) Ah) _ _ _ Hcm Hcan).
  - intros Hh. rewrite <- Eh in Hh. rewrite <- Eh. apply orb_prop in Ec as [Ec|Ec]; [|exact (proj1 (bool_decide_eq_true _) Ec)].
    apply orb_prop in Ec as [Ec|Ec]; apply N.eqb_eq in Ec; [exact (proj2 Hcc Ec Hh)|done].
  - rewrite <- As. exact Es.
  - intros k. rewrite <- Hst. unfold oget. destruct (o_didx o !! k) as [i|] eqn:Hk; [|reflexivity].
    destruct (proj1 (HD k i) Hk) as [v Hv]. rewrite Hv. simpl. symmetry. apply Z.eqb_eq.
    exact (Hcl (k, v) (proj1 (elem_of_list_In _ _) (elem_of_list_lookup_2 _ _ _ Hv))).
Qed.

Lemma finalise_obj_fresh a s x o p0 : Inv a s -> trig_residue a Finalise = false -> fin_okb a = true ->
  (x, o) ∈ a_objs a -> ext_at x (a_pers a) p0 ->
  fresh_ok (finalise_obj (dirty_set a) p0 (x, o)) x (finalise_accts (accts (cur s)) !! x).
Proof.
  intros HI Htr Hfin Hin [A0 K0]. set (p := a_pers a) in *. set (D := dirty_set a).
  pose proof (proj1 (i_crel _ _ HI) x) as Hx. fold p in Hx.
  destruct (proj1 (elem_of_list_lookup _ _) Hin) as [i Hoi].
  unfold look in Hx. rewrite (proj2 (i_wo _ _ HI x i) (ex_intro _ o Hoi)), Hoi in Hx. simpl in Hx.
  rewrite fin_accts_lookup. destruct (accts (cur s) !! x) as [ac|] eqn:Hac; [|done]. simpl.
  pose proof Hx as (Ab & An & (Ah & Hcc) & As & Hst & Hcm & HD & HO & Hcan).
  apply elem_of_list_In in Hin.
  assert (doomed a (x, o) && (negb (o_bal o =? 0) || has_slots p x) = false) as Hres.
  { apply not_true_is_false. intros E. apply not_true_iff_false in Htr. apply Htr, existsb_exists. exists (x, o). done. }
  assert ((if bool_decide (is_Some (D !! x)) then doomed a (x, o) || slots_cachedb o else obj_cleanb p x o) = true) as Hok.
  { unfold fin_okb in Hfin. rewrite forallb_forall in Hfin. exact (Hfin _ Hin). }
  assert (acct_empty ac = obj_empty o) as Hemp by (unfold acct_empty, obj_empty; rewrite Ab, An, Ah; reflexivity).
  unfold doomed in Hres, Hok. fold D in Hres, Hok. unfold finalise_obj.
  destruct (o_suic o || bool_decide (is_Some (D !! x)) && obj_empty o) eqn:Hdoom.
  - (* removed (self-destructed, or dirty and empty): the guard (Hres) says it leaves neither balance
       nor storage words behind *)
    simpl in Hres. apply orb_false_elim in Hres. destruct Hres as [Hb Hs]. apply negb_false_iff, Z.eqb_eq in Hb.
    replace (suic ac || acct_empty ac) with true.
    2: { rewrite <- As, Hemp. apply orb_prop in Hdoom as [->|[_ ->]%andb_prop]; [done|symmetry; apply orb_true_r]. }
    apply fresh_ok_none.
    + unfold load, pbal. simpl. rewrite lookup_delete, lookup_insert. simpl. rewrite Hb. done.
    + intros k. change (pslot p0 x k = 0). rewrite (pslot_agree _ _ _ k A0). apply has_slots_false, Hs.
  - apply orb_false_elim in Hdoom. destruct Hdoom as [Hsu Hde]. rewrite Hsu in *.
    destruct (bool_decide (is_Some (D !! x))) eqn:Hdirty; simpl in Hde, Hok.
    + (* written back (dirty): the side condition (Hok) says every non-zero dirty slot has its original
         cached, so commitState loses none *)
      rewrite <- As, Hemp, Hde.
      assert (p_codes (commit_state x o p0) = p_codes p0) as C3
        by (unfold commit_state; destruct (commit_fold_frame x o (o_dirty o) p0) as (m & -> & _); reflexivity).
      refine (fresh_ok_some _ x (o_bal o) (o_nonce o) (o_hash o) (promote ac) _ Ab An Ah _ eq_refl eq_refl _ Hcan _); simpl.
      * unfold load, pbal. simpl. rewrite !lookup_insert. reflexivity.
      * intros Hh. rewrite C3. destruct Hcc as [[Hc0|[Hc1 Hdc]] Hc2].
        -- rewrite Hc0. simpl. apply K0, Hc2; done.
        -- rewrite Hdc, (proj2 (N.eqb_neq _ _)) by congruence. simpl. rewrite lookup_insert. eauto.
      * intros k. change (pslot (commit_state x o p0) x k = sget (stor ac) k).
        rewrite (commit_state_own x o p0 HD (OW_agree _ _ _ _ A0 HO) Hok), (oget_agree _ _ _ _ k A0). apply Hst.
      * unfold acct_empty. simpl. exact (eq_trans Hemp Hde).
    + (* skipped (not in the dirty set): the side condition (Hok) says it equals its persisted image *)
      destruct (arel_clean p x o ac Hx Hok) as (o0 & Hl0 & Hx0).
      exact (fresh_ok_ext p _ _ _ (fresh_ok_keep p x o0 ac (i_ne _ _ HI) Hl0 Hx0) (conj A0 K0)).
Qed.

Lemma fin_addr a s x : Inv a s -> trig_residue a Finalise = false -> fin_okb a = true ->
  fresh_ok (fold_left (finalise_obj (dirty_set a)) (a_objs a) (a_pers a)) x (finalise_accts (accts (cur s)) !! x).
Proof.
  intros HI Htr Hfin. pose proof (i_wo _ _ HI) as HW.
  apply (fold_fresh fst _ (finalise_obj_ext _)); [exact (ix_ok_NoDup _ _ HW)| |].
  - (* no live object: the persisted record stays *)
    intros Hnin. pose proof (proj1 (i_crel _ _ HI) x) as Hx. rewrite fin_accts_lookup.
    assert (a_oidx a !! x = None) as Hix.
    { destruct (a_oidx a !! x) as [i|] eqn:Hix; [|done]. destruct (proj1 (HW x i) Hix) as [o Hoi].
      destruct Hnin. apply elem_of_list_fmap. exists (x, o). split; [done|]. exact (elem_of_list_lookup_2 _ _ _ Hoi). }
    unfold look in Hx. rewrite Hix in Hx.
    destruct (load (a_pers a) x) as [o0|] eqn:Hl0, (accts (cur s) !! x) as [ac|]; [|destruct Hx..|]; simpl.
    + exact (fresh_ok_keep _ x o0 ac (i_ne _ _ HI) Hl0 Hx).
    + exact (fresh_ok_none _ x Hl0 (i_nr _ _ HI x Hl0)).
  - intros [y o] p0 Hin Hy E. simpl in Hy. subst y. exact (finalise_obj_fresh a s x o p0 HI Htr Hfin Hin E).
Qed.

Lemma sim_finalise a s (block : bool) : Inv a s -> trig_residue a Finalise = false -> fin_okb a = true ->
  simo a s (if block then BlockCommit else Finalise).
Proof.
  intros HI Htr Hfin. pose proof (fun x => fin_addr a s x HI Htr Hfin) as Hall.
  destruct (aux_fields _ _ (i_aux _ _ HI)) as (_ & Hsz & _).
  destruct block; unfold simo; simpl; unfold a_finalise; [|rewrite Hsz, (i_id _ _ HI)];
    refine (sim_done _); apply Inv_fresh; first [exact Hall|reflexivity].
Qed.

Definition reads (o : op) : option addr :=
  match o with
  | GetBalance x | GetNonce x | GetCodeHash x | GetCode x | GetCodeSize x | HasSuicided x | Exist x | Empty x => Some x
  | _ => None
  end.
Lemma sim_reads a s o x : Inv a s -> reads o = Some x -> simo a s o.
Proof.
  intros HI Ho. destruct (read_sim a s x HI) as (a' & HI1 & Hrd).
  pose proof (proj1 (i_crel _ _ HI) x) as Hr.
  destruct (look a x) as [ob|], (accts (cur s) !! x) as [c|] eqn:Hc; [|destruct Hr..|].
  - (* what each of them answers is a field that [arel] equates (the code through [CC_code]) *)
    pose proof (CC_code _ _ (arel_CC Hr)) as Hcd.
    destruct o; try discriminate Ho; injection Ho as ->; unfold simo; simpl; rewrite Hrd, Hc, ?Hcd; unfold obj_empty;
      rewrite ?(arel_bal_eq Hr), ?(arel_nonce_eq Hr), ?(arel_hash_eq Hr), ?(arel_suic_eq Hr); exact (sim_done HI1).
  - destruct o; try discriminate Ho; injection Ho as ->; unfold simo; simpl; rewrite Hrd, Hc; exact (sim_done HI1).
Qed.

Lemma step_sim a s o : Inv a s -> pstep_ok a o = true -> sim a s o.
Proof.
  intros HI Hok. unfold pstep_ok in Hok. apply andb_prop in Hok as [Hok Hfresh]. apply andb_prop in Hok as [Hok _].
  unfold step_ok, step_class in Hok. destruct (trig_residue a o) eqn:Htr; [done|].
  destruct (trig_create_over a o); [done|]. destruct (pre_violated a o) eqn:Hpre; [done|].
  destruct (fin_unchecked a o) eqn:Hfu; [done|]. clear Hok.
  destruct (reads o) as [x|] eqn:Hr; [exact (simo_sim _ _ _ (sim_reads a s o x HI Hr))|].
  destruct (aux_fields _ _ (i_aux _ _ HI)) as (Hlg & _ & Haa & Hsl). pose proof (proj2 (i_crel _ _ HI)) as Hrf.
  destruct o; try discriminate Hr.
  - apply simo_sim, sim_CreateAccount; [exact HI|]. apply negb_true_iff, Hfresh.
  - apply simo_sim, sim_SubBalance; assumption.
  - apply simo_sim, sim_AddBalance, HI.
  - apply simo_sim, sim_SetNonce, HI.
  - apply simo_sim, sim_SetCode, HI.
  - (* AddRefund *) apply simo_sim. unfold simo. simpl. rewrite <- Hrf. exact (sim_done (Inv_refund a s _ HI)).
  - apply sim_SubRefund, HI.
  - (* GetRefund *) apply simo_sim. unfold simo. simpl. rewrite Hrf. exact (sim_done HI).
  - apply simo_sim, (sim_read_slot a s x k true), HI.
  - apply simo_sim, (sim_read_slot a s x k false), HI.
  - apply simo_sim, sim_SetState, HI.
  - apply simo_sim, sim_Suicide, HI.
  - apply simo_sim, sim_AlAddAddr, HI.
  - apply simo_sim, sim_AlAddSlot, HI.
  - (* AlHasAddr *) apply simo_sim. unfold simo. simpl. rewrite Haa. exact (sim_done HI).
  - (* AlHasSlot *) apply simo_sim. unfold simo. simpl. rewrite Haa, Hsl. exact (sim_done HI).
  - apply simo_sim, sim_Snapshot, HI.
  - apply sim_Revert, HI.
  - apply simo_sim, sim_AddLog, HI.
  - (* GetLogs *) apply simo_sim. unfold simo. simpl. rewrite Hlg. exact (sim_done HI).
  - apply simo_sim, (sim_finalise a s false HI Htr). apply negb_false_iff, Hfu.
  - apply simo_sim, (sim_finalise a s true HI Htr). apply negb_false_iff, Hfu.
Qed.

Lemma bisim ops : forall a s, Inv a s -> pguardedb a ops = true ->
  aoutputs a ops = spec_outputs s ops /\ Inv (arun a ops).2 (spec_run s ops).2.
Proof.
  induction ops as [|o ops IH]; intros a s HI Hg.
  - split; [reflexivity|exact HI].
  - simpl in Hg. apply andb_prop in Hg. destruct Hg as [Hok Hrest].
    destruct (step_sim a s o HI Hok) as (r & a' & s' & Ha & Hs & HI').
    unfold aoutputs, spec_outputs in *. simpl. rewrite Ha, Hs. rewrite Ha in Hrest. simpl in Hrest.
    destruct (IH a' s' HI' Hrest) as [Ho Hi].
    destruct (arun a' ops) as [rs a''] eqn:Ea. destruct (spec_run s' ops) as [rs' s''] eqn:Es.
    simpl in *. split; [f_equal; exact Ho|exact Hi].
Qed.

Lemma any_client strat : forall n a s h, Inv a s -> client_guard n strat a h = true ->
  client_run_a n strat a h = client_run_s n strat s h.
Proof.
  induction n as [|n IH]; intros a s h HI Hg; [reflexivity|].
  simpl in *. destruct (strat h) as [o|]; [|reflexivity].
  apply andb_prop in Hg. destruct Hg as [Hok Hrest].
  destruct (step_sim a s o HI Hok) as (r & a' & s' & Ha & Hs & HI').
  rewrite Ha, Hs. rewrite Ha in Hrest. f_equal. apply IH; assumption.
Qed.

Lemma fold_insert_other x l : forall (m : gmap (addr * key) Z) y k, y <> x ->
  fold_left (fun m (kv : key * Z) => <[(x, kv.1) := kv.2]> m) l m !! (y, k) = m !! (y, k).
Proof.
  induction l as [|kv l IH]; intros m y k Hne; simpl; [reflexivity|].
  rewrite IH by done. rewrite lookup_insert_ne; [reflexivity|congruence].
Qed.
Lemma fold_insert_own x l : forall (m : gmap (addr * key) Z) k, NoDup l.*1 ->
  fold_left (fun m (kv : key * Z) => <[(x, kv.1) := kv.2]> m) l m !! (x, k) =
    match (list_to_map l : gmap key Z) !! k with Some v => Some v | None => m !! (x, k) end.
Proof.
  induction l as [|[k0 v0] l IH]; intros m k Hnd; [reflexivity|].
  apply NoDup_cons in Hnd as [Hnotin Hnd']. cbn [fold_left list_to_map foldr fst snd]. rewrite (IH _ _ Hnd').
  destruct (decide (k0 = k)) as [->|Hne].
  - rewrite (lookup_insert (list_to_map l)), (not_elem_of_list_to_map_1 _ _ Hnotin). apply lookup_insert.
  - rewrite (lookup_insert_ne (list_to_map l)) by exact Hne. destruct (list_to_map l !! k); [reflexivity|].
    apply lookup_insert_ne. intros [= E]. exact (Hne E).
Qed.

Lemma pers_add_ext p s y : y <> sa_addr s -> ext_at y p (pers_add p s).
Proof.
  intros Hne. unfold pers_add. destruct (sa_native s); (split; [split; simpl|intros h H; simpl]).
  - reflexivity.
  - split; [rewrite lookup_insert_ne by done; reflexivity|reflexivity].
  - exact H.
  - rewrite lookup_insert_ne by done. reflexivity.
  - split; [rewrite lookup_insert_ne by done; reflexivity|]. intros k. apply fold_insert_other. exact Hne.
  - destruct (sa_code s =? 0)%N; [exact H|].
    destruct (decide (sa_code s = h)) as [->|]; [rewrite lookup_insert; eauto|rewrite lookup_insert_ne by done; exact H].
Qed.

Lemma pers_add_fresh p0 s0 : start_acct_okb s0 = true ->
  p_keeper p0 !! sa_addr s0 = None -> (forall k, p_cstore p0 !! (sa_addr s0, k) = None) ->
  fresh_ok (pers_add p0 s0) (sa_addr s0) (Some (start_acct_of s0)).
Proof.
  intros Hs0 Hk Hc. unfold start_acct_okb in Hs0. unfold start_acct_of, pers_add. destruct (sa_native s0).
  - apply negb_true_iff in Hs0.
    refine (fresh_ok_some _ _ (sa_bal s0) 0 0%N (new_acct (sa_bal s0)) _ eq_refl eq_refl eq_refl _ eq_refl eq_refl _ _ _).
    + unfold load, pbal. simpl. rewrite Hk, lookup_insert. simpl. rewrite Hs0. reflexivity.
    + intros [].  reflexivity.
    + intros k. unfold pslot, sget. simpl. rewrite Hc, lookup_empty. reflexivity.
    + intros k [=].
    + unfold acct_empty. simpl. rewrite Hs0. reflexivity.
  - apply andb_prop in Hs0 as [Hs0 Hndk]. apply andb_prop in Hs0 as [Hne Hnz].
    apply bool_decide_eq_true in Hndk. rewrite forallb_forall in Hnz.
    apply (fresh_ok_some _ _ (sa_bal s0) (sa_nonce s0) (sa_code s0)); simpl;
      [|reflexivity|reflexivity|reflexivity| |reflexivity|reflexivity| | |].
    + unfold load, pbal. simpl. rewrite !lookup_insert. reflexivity.
    + intros Hc'. rewrite (proj2 (N.eqb_neq _ _) Hc'), lookup_insert. eauto.
    + intros k. unfold pslot, sget. simpl. rewrite (fold_insert_own _ _ _ _ Hndk).
      destruct (list_to_map (sa_stor s0) !! k); [done|]. rewrite Hc. done.
    + intros k Hk'%elem_of_list_to_map_2%elem_of_list_In. specialize (Hnz _ Hk'). done.
    + unfold acct_empty. simpl. rewrite <- negb_true_iff, !negb_andb. exact Hne.
Qed.

Lemma start_addr st x : start_okb st = true ->
  fresh_ok (fold_left pers_add st {| p_keeper := ∅; p_bal := ∅; p_cstore := ∅; p_codes := ∅ |}) x
           ((list_to_map ((fun a => (sa_addr a, start_acct_of a)) <$> st) : gmap addr acct) !! x).
Proof.
  intros Hok. unfold start_okb in Hok. apply andb_prop in Hok as [Hall Hnd].
  apply bool_decide_eq_true in Hnd. rewrite forallb_forall in Hall.
  apply (fold_fresh sa_addr pers_add pers_add_ext); [exact Hnd| |].
  - intros Hnin. rewrite (not_elem_of_list_to_map_1 _ x) by (rewrite <- list_fmap_compose; exact Hnin).
    apply fresh_ok_none; reflexivity.
  - intros s0 p0 Hin <- [(Ak & _ & Ac) _].
    rewrite (elem_of_list_to_map_1 _ (sa_addr s0) (start_acct_of s0))
      by first [rewrite <- list_fmap_compose; exact Hnd|apply elem_of_list_fmap; eauto].
    apply pers_add_fresh; [exact (Hall _ (proj1 (elem_of_list_In _ _) Hin))|rewrite Ak; apply lookup_empty|].
    intros k. rewrite Ac. apply lookup_empty.
Qed.

Lemma Inv_start st : start_okb st = true -> Inv (a_init st) (spec_init st).
Proof. intros Hok. apply Inv_fresh; [|done..]. intros x. apply start_addr, Hok. Qed.

Lemma Inv_empty : Inv (a_init []) (spec_init []).
Proof. exact (Inv_start [] eq_refl). Qed.
