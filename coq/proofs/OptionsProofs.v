(* OptionsProofs.v — coherence of the in-memory option copies under the writer discipline. *)
From Coq Require Import String List Bool ZArith Lia.
Import ListNotations.
From OL Require Import theories.Options.

Definition coherent (s : ost) : Prop := copy s = rec_d s.

Lemma orun_cons s e r :
  orun s (e :: r) = (fst (orun (fst (ostep s e)) r), snd (ostep s e) ++ snd (orun (fst (ostep s e)) r)).
Proof. cbn [orun]. destruct (ostep s e), (orun _ r). reflexivity. Qed.

Lemma srun_cons s e r :
  srun s (e :: r) = (fst (srun (fst (sstep s e)) r), snd (sstep s e) ++ snd (srun (fst (sstep s e)) r)).
Proof. cbn [srun]. destruct (sstep s e), (srun _ r). reflexivity. Qed.

Lemma ostep_coherent s e : coherent s -> disciplined_ev e = true -> coherent (fst (ostep s e)).
Proof. unfold coherent. now destruct e as [|[]| | |? []|? []|]. Qed.

Lemma ostep_sstep s e : coherent s -> ostep s e = sstep s e.
Proof. intros Hc. destruct e; try reflexivity. cbn. now rewrite Hc. Qed.

Theorem options_coherent : forall evs s, coherent s -> disciplined evs = true -> orun s evs = srun s evs.
Proof.
  induction evs as [|e r IH]; intros s Hc Hd; [reflexivity|].
  apply andb_prop in Hd as [He Hr].
  rewrite orun_cons, srun_cons, <- ostep_sstep, IH; auto using ostep_coherent.
Qed.

(* [e]: a reloading BeginBlock, a restart *)
Lemma coherent_after e post s : sstep s e = ostep s e -> coherent (fst (ostep s e)) -> disciplined post = true ->
  snd (orun s (e :: post)) = snd (srun s (e :: post)).
Proof. intros Es Hc Hd. rewrite orun_cons, srun_cons, Es, options_coherent; auto. Qed.

(* nothing reads the check-state record *)
Definition eq_mod_c (a b : ost) : Prop := com a = com b /\ rec_d a = rec_d b /\ copy a = copy b.

Lemma ostep_mod_c a b e : eq_mod_c a b ->
  eq_mod_c (fst (ostep a e)) (fst (ostep b e)) /\ snd (ostep a e) = snd (ostep b e).
Proof.
  unfold eq_mod_c. intros (H1 & H2 & H3).
  destruct e as [|[]| | |? []|? []|]; cbn; repeat split; congruence.
Qed.

Lemma ostep_check_mod_c a e : is_check e = true -> disciplined_ev e = true ->
  eq_mod_c (fst (ostep a e)) a /\ snd (ostep a e) = [].
Proof. unfold eq_mod_c. destruct e as [| | | |? []|? []|]; try discriminate; repeat split. Qed.

Lemma orun_mod_c : forall evs a b, eq_mod_c a b -> disciplined evs = true ->
  snd (orun a evs) = snd (orun b (strip_ochecks evs)) /\ eq_mod_c (fst (orun a evs)) (fst (orun b (strip_ochecks evs))).
Proof.
  induction evs as [|e r IH]; intros a b Hab Hd; [now split|].
  apply andb_prop in Hd as [He Hr]. rewrite orun_cons. cbn [strip_ochecks filter fst snd].
  destruct (is_check e) eqn:Hc; cbn [negb].
  - destruct (ostep_check_mod_c a e Hc He) as [(H1 & H2 & H3) ->].
    apply IH; [unfold eq_mod_c in *; intuition congruence|assumption].
  - rewrite orun_cons. cbn [fst snd]. destruct (ostep_mod_c a b e Hab) as [Hs ->].
    destruct (IH _ _ Hs Hr) as [-> H2]. now split.
Qed.

Theorem option_checks_invisible : forall evs s, disciplined evs = true ->
  snd (orun s evs) = snd (orun s (strip_ochecks evs)).
Proof. intros evs s Hd. now apply (orun_mod_c evs s s). Qed.

Theorem option_unread_copy_invisible : forall evs s, no_reads evs = true -> snd (orun s evs) = [].
Proof.
  induction evs as [|e r IH]; intros s Hn; [reflexivity|].
  apply andb_prop in Hn as [He Hr]. rewrite orun_cons. cbn [snd]. rewrite IH by assumption.
  now destruct e.
Qed.

Example options_nonvacuous :
  let evs := [OBegin true; ORead; OCheck 8 false; OCheckValidate 3 false; ORead; OFinalD 8; OCommit; OBegin true; ORead; OStart; ORead] in
  disciplined evs = true /\ snd (orun {| com := 9; rec_d := 9; rec_c := 9; copy := 9 |} evs) = [9; 9; 8; 8]%Z.
Proof. split; reflexivity. Qed.
