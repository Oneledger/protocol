(* C05 — at-most-once execution of a signed transaction.  Only property theorems here. *)
From Coq Require Import ZArith List Bool String.
Import ListNotations.
From OL Require Import theories.Replay proofs.ReplayProofs gen.Facts_Wrapper
  theories.ReplayGuard proofs.ReplayGuardProofs gen.Facts_Deletes.
Local Open Scope Z_scope.

(* every transaction delivered in a block is in the hash index after the commit (given the
   node's indexer indexes every committed transaction), and stays there *)
Theorem C05_delivered_is_indexed : forall content decode state admissible apply
  (n : node state) b,
  mem b (idx state (commit state (snd (deliver content decode state admissible apply n b)))) = true.
Proof.
  intros. destruct (deliver_spec _ decode _ admissible apply n b) as (v & s' & ->).
  apply mem_In. destruct (mem b (idx state n)) eqn:E; cbn.
  - apply in_or_app. right. apply mem_In, E.
  - left. reflexivity.
Qed.
Print Assumptions C05_delivered_is_indexed.

Theorem C05_index_monotone : forall content decode state admissible apply (n : node state) b h,
  mem h (idx state n) = true ->
  mem h (idx state (snd (deliver content decode state admissible apply n b))) = true /\
  mem h (idx state (commit state n)) = true.
Proof.
  intros * H. split.
  - destruct (deliver_spec _ decode _ admissible apply n b) as (v & s' & ->).
    destruct (mem b (idx state n)); exact H.
  - apply mem_In, in_or_app. right. apply mem_In, H.
Qed.

(* byte-identical resubmission: rejected by the mempool check, no effect when delivered *)
Theorem C05_identical_bytes : forall content decode state admissible apply (n : node state) b,
  mem b (idx state n) = true ->
  check content decode state admissible n b = Duplicate /\
  deliver content decode state admissible apply n b = (Duplicate, n).
Proof. intros * H. unfold check, deliver, hash. rewrite H. split; reflexivity. Qed.
Print Assumptions C05_identical_bytes.

(* partial: among canonical encodings, the same signed content is the same bytes *)
Theorem C05_at_most_once_partial : forall content decode state admissible apply (n : node state) b b',
  (forall x y c, decode x = Some c -> decode y = Some c -> x = y) ->
  canonical b -> canonical b' -> parse content decode b <> None ->
  parse content decode b' = parse content decode b ->
  mem b (idx state n) = true ->
  deliver content decode state admissible apply n b' = (Duplicate, n).
Proof.
  intros * Hinj Hc Hc' Hsome Hsame Hin.
  rewrite (canonical_parse_inj _ _ b b' Hinj Hc Hc' Hsome Hsame). apply C05_identical_bytes, Hin.
Qed.
Print Assumptions C05_at_most_once_partial.

(* the full statement is refuted: a re-encoding (one leading space) of an executed transaction
   has another hash and the same parsed, signed content: accepted and executed again.
   Known finding C05.reencoding_replay. *)
Theorem C05_refuted_reencoding : exists (b b' : bytes),
  let decode := fun x : bytes => Some x in
  let adm := fun (_ : bytes) (_ : Z) => true in
  let app := fun (_ : bytes) (s : Z) => s + 1 in
  let n0 := {| idx := [] ; st := 0 ; pending := [] |} in
  let n1 := commit Z (snd (deliver bytes decode Z adm app n0 b)) in
  b' <> b /\ parse bytes decode b' = parse bytes decode b /\
  check bytes decode Z adm n1 b' = Accepted /\
  st Z (snd (deliver bytes decode Z adm app n1 b')) = 2.
Proof. exists [123; 125], [32; 123; 125]. vm_compute. repeat split. discriminate. Qed.

(* tie to the source (regenerated): both CheckTx and DeliverTx consult the hash index before
   anything else *)
Theorem C05_fact_cache_lookup_first :
  checker_cache_lookup_first = true /\ deliverer_cache_lookup_first = true.
Proof. split; reflexivity. Qed.

(* The second line of defence: the record an executed transaction leaves (theories/ReplayGuard.v).
   A creating transaction (DOMAIN_CREATE, PROPOSAL_CREATE, ALLEGATION, ETH / ERC20 lock and redeem, BID_CREATE,
   an OLVM transaction) carries a guard id that is a function of its SIGNED content — every encoding that passes
   the signature check carries the same id — and executes only when that id is not taken.  For all histories of
   submissions in any encodings, removals of other records and unrelated operations: it takes effect at most once,
   and once executed every later submission changes nothing, for as long as nothing removes its record. *)
Theorem C05_guarded_at_most_once : forall g ops, never_removes g ops = true ->
  (gcount g (effects (grun ginit ops)) <= 1)%nat.
Proof. intros g ops Hn. rewrite (guard_counted g ops Hn). destruct (gmem g _); repeat constructor. Qed.
Print Assumptions C05_guarded_at_most_once.

Theorem C05_guarded_executed_stays_refused : forall g pre post,
  never_removes g post = true ->
  let s := grun (gstep (grun ginit pre) (GSubmit g)) post in
  gmem g (taken s) = true /\ gstep s (GSubmit g) = s.
Proof.
  intros g pre post Hn s. assert (gmem g (taken s) = true) as Hm.
  { apply (grun_preserves g _ (gstep_taken g) post _ Hn). cbn [gstep].
    destruct (gmem g (taken (grun ginit pre))) eqn:E; [exact E|]. cbn. rewrite Z.eqb_refl. reflexivity. }
  split; [exact Hm|]. cbn [gstep]. rewrite Hm. reflexivity.
Qed.
Print Assumptions C05_guarded_executed_stays_refused.

(* the hypothesis is necessary: a removal in between and the same signed content takes effect twice *)
Theorem C05_guard_removed_refuted : exists g ops,
  never_removes g ops = false /\ gcount g (effects (grun ginit ops)) = 2%nat.
Proof. exists 7%Z, [GSubmit 7%Z; GRemove 7%Z; GSubmit 7%Z]. split; reflexivity. Qed.

(* tie to the source (regenerated on every run): every call that deletes a guard record is of an audited class
   (theories/ReplayGuard.v): a move between state prefixes (the id stays taken under the other prefix), the
   removal of SUB domains, the replacement of a FAILED Ethereum lock (retry by design), an allegation request
   after its verdict (its ALLEGATION can then run again in another encoding: listed under the known finding
   C05.reencoding_replay), an empty or self-destructed OLVM account (nonce 0).  A new deletion site, or an old
   one reached from another function or on another state prefix, is an open obligation. *)
Theorem C05_fact_guard_deletions_audited : unaudited_deletes guard_deletes = [].
Proof. vm_compute. reflexivity. Qed.

Example C05_fact_guard_deletions_nonvacuous :
  (20 <=? List.length guard_deletes)%nat = true /\
  (10 <=? count_dclass (fun c => match c with DMove => true | _ => false end) guard_deletes)%nat = true /\
  count_dclass (fun c => match c with DRetry => true | _ => false end) guard_deletes = 2%nat /\
  unaudited_deletes [("data/ons.DomainStore.DeleteASubdomain"%string, "action/ons.runRenew"%string, "-"%string)] <> [] /\
  unaudited_deletes [("data/ethereum.TrackerStore.Delete"%string, "event.Cleanup"%string, "WithPrefixType(ethereum.PrefixPassed)"%string)] <> [].
Proof. vm_compute. repeat split; discriminate. Qed.
