(* C08 — crash-restart equivalence.  Only property theorems here. *)
From stdpp Require Import gmap list.
From Coq Require Import ZArith String.
From OL Require Import theories.Store theories.Abci theories.Restart theories.Caches
  proofs.StoreProofs proofs.AbciProofs proofs.RestartProofs gen.Facts_Caches
  theories.Globals proofs.GlobalsProofs gen.Facts_Globals
  theories.Options proofs.OptionsProofs gen.Facts_Options.
Local Open Scope Z_scope.

(* after a crash at ANY call boundary of ANY block (arbitrary hook, handler and fee programs),
   the restarted node reports the version and tree of its last completed commit *)
Theorem C08_info : forall s b c, durable s -> info (do_reopen (run_cut s b c)) = info s.
Proof. intros s b c Hd. apply info_after_reopen; [exact Hd|apply run_cut_disk]. Qed.
Print Assumptions C08_info.

(* replaying the interrupted block from the restarted node yields exactly the transcript
   (hook verdicts, per-transaction verdicts, committed version, committed tree and tree-call
   log, hence root hash) and exactly the state of a node that never stopped *)
Theorem C08_replay_block : forall s b c, durable s ->
  run_blk (do_reopen (run_cut s b c)) b = run_blk s b.
Proof. intros s b c Hd. apply run_blk_after_reopen; [exact Hd|apply run_cut_disk]. Qed.
Print Assumptions C08_replay_block.

(* every commit makes the next state durable, so the argument iterates *)
Theorem C08_commit_durable : forall s b, rot_ok s ->
  durable (run_blk s b).2 /\ rot_ok (run_blk s b).2.
Proof. exact run_blk_durable. Qed.

(* whole histories: any number of blocks, each dying at any list of call boundaries (repeated
   crashes) and optionally right after its commit: same transcripts; the final states differ at
   most in the ghost LastVersion field that nothing reads *)
Theorem C08_chain : forall bs s lv, durable s -> rot_ok s ->
  (run_chain_crashy (with_lv s lv) bs).1 = (run_chain s (map cb_blk bs)).1 /\
  exists lv', (run_chain_crashy (with_lv s lv) bs).2 = with_lv (run_chain s (map cb_blk bs)).2 lv'.
Proof. exact crashy_chain. Qed.
Print Assumptions C08_chain.

(* non-vacuity: a committed non-empty state is durable; a block that writes in BeginBlock,
   delivers a failing and a succeeding transaction and deletes in EndBlock, crashed after its
   first transaction and again before Commit, replays to the same transcript *)
Example C08_nonvacuous :
  let r0 := {| recent := 1; every := 0; cycles := 0 |} in
  let s0 := (run_blk (init r0) {| b_limit := None; b_begin := PSet 1%N [5%N] (fun _ => Ret true);
                                  b_txs := []; b_end := Ret true |}).2 in
  let b := {| b_limit := Some 100000; b_begin := PSet 2%N [6%N] (fun _ => Ret true);
              b_txs := [(PSet 3%N [7%N] (fun _ => Ret false), fun _ => Ret true);
                        (PSet 4%N [8%N] (fun _ => Ret true), fun _ => Ret true)];
              b_end := PDel 1%N (Ret true) |} in
  saved s0 !! version s0 = Some (tree s0) /\ tree s0 !! 1%N = Some [5%N] /\
  (run_blk_crashy s0 b [CutTx 1; CutEnd]).1 = (run_blk s0 b).1 /\
  r_txs (run_blk s0 b).1 = [false; true] /\ r_tree (run_blk s0 b).1 !! 1%N = None.
Proof.
  intros r0 s0 b. assert (durable s0) as Hd by reflexivity.
  split; [exact Hd|]. split; [reflexivity|].
  split; [rewrite crashy_block by exact Hd; reflexivity|]. split; reflexivity.
Qed.

(* tie to the source (regenerated on every run): every in-memory field of the long-lived
   application objects is of a class for which restart coherence has been argued:
   - StatePtr/Inert/Root/Structural: no content of their own;
   - OptionCopy: loaded by Prepare() from the committed governance store at start-up and
     rewritten together with the store at finalisation (exercised by the restart twin runs with
     governance histories);
   - PerBlock: rebuilt from committed state at BeginBlock before use (ValidatorStore.Setup,
     RewardCalculator.Reset, governance Store.WithHeight) or drained at EndBlock;
   - PerTx: the EVM adapter's objects/journal/logs, emptied by Finalise/Reset;
   - CycleCache: the reward calculator's per-cycle cache, recomputed on a miss (C13).
   A field outside these classes is an open obligation. *)
Theorem C08_fact_caches : unknown_fields cache_fields = [].
Proof. vm_compute. reflexivity. Qed.

(* no variable is captured by the closures that serve the ABCI calls: nothing survives from one
   request to the next outside the objects classified above *)
Theorem C08_fact_closures : closure_vars = [].
Proof. vm_compute. reflexivity. Qed.

Example C08_fact_caches_nonvacuous :
  (50 <=? Z.of_nat (List.length cache_fields)) = true /\
  (5 <=? Z.of_nat (count_class (fun c => match c with OptionCopy => true | _ => false end) cache_fields)) = true /\
  (8 <=? Z.of_nat (count_class (fun c => match c with PerBlock => true | _ => false end) cache_fields)) = true /\
  (20 <=? Z.of_nat (count_class (fun c => match c with PerTx => true | _ => false end) cache_fields)) = true /\
  count_class (fun c => match c with CycleCache => true | _ => false end) cache_fields = 1%nat.
Proof.
  (* classify every field once; the counts are then read off the list of classes *)
  assert (forall c fs, count_class c fs =
            List.length (List.filter c (List.map (fun '(f, t) => classify f t) fs))) as Hc.
  { intros c fs. unfold count_class. induction fs as [|[f t] fs IH]; [reflexivity|].
    cbn [List.filter List.map]. destruct (c (classify f t)); cbn [List.length]; now rewrite IH. }
  rewrite !Hc.
  let cs := eval vm_compute in (List.map (fun '(f, t) => classify f t) cache_fields) in
  assert (List.map (fun '(f, t) => classify f t) cache_fields = cs) as -> by (vm_compute; reflexivity).
  vm_compute. repeat split; reflexivity.
Qed.

(* A process that is restarted loses its package-level variables and may find other node-local
   data (the job store, the witness flag read at start).  What is persisted must not depend on
   them.  Model: theories/Globals.v (the ETH lock-tracker transitions as the block ender runs them). *)
Theorem C08_tracker_state_independent_of_local_inputs : forall h1 h2 t,
  same_inputs h1 h2 -> writes_ok h1 = true -> writes_ok h2 = true ->
  run false t h1 = run false t h2.
Proof. exact run_local_independent. Qed.

Theorem C08_tracker_step_is_consensus_step : forall t l,
  l_write_ok l = true -> persisted false t l = consensus_step t.
Proof. exact persisted_is_consensus_step. Qed.

(* necessity (the repaired defect 3dd4152): with "a missing broadcast job is an error" the node that
   was restarted (witness flag on, no job) keeps the tracker in BusyBroadcasting *)
Example C08_old_finalizing_depends_on_the_job_store :
  let t := {| t_state := 1; t_votes := 1; t_finalized := false |} in
  t_state (persisted true t node_with_job) = 2%nat /\
  t_state (persisted true t fresh_node) = 2%nat /\
  t_state (persisted true t node_restarted_without_job) = 1%nat /\
  t_state (persisted false t node_restarted_without_job) = 2%nat.
Proof. exact old_finalizing_node_dependent. Qed.

Example C08_tracker_history_nonvacuous :
  let t0 := {| t_state := 0; t_votes := 0; t_finalized := false |} in
  let cin := [EndBlock; Vote false; EndBlock; Vote true; EndBlock; EndBlock] in
  let h1 := map (fun c => (c, node_with_job)) cin in
  let h2 := map (fun c => (c, node_restarted_without_job)) cin in
  same_inputs h1 h2 /\ writes_ok h1 = true /\ writes_ok h2 = true /\
  t_state (run false t0 h1) = 3%nat /\ run false t0 h1 = run false t0 h2 /\
  t_state (run true t0 h2) = 1%nat.
Proof. exact run_reaches_finalized. Qed.

(* tie to the source (regenerated on every run):
   - every package-level variable written at run time is a constant of the process image (init only),
     a registry filled from init functions, or the one audited node-local flag;
   - the functions that consult the witness flag or look a job up are exactly the audited ones;
   - no function of package event assigns a tracker state and later fails on a job LOOKUP (the shape of
     the repaired defect); failures of a job WRITE (the node's own database) are the audited ones. *)
Theorem C08_fact_globals : unknown_globals written_globals = [] /\ node_flags written_globals = ["identity.isETHWitness"%string].
Proof. vm_compute. split; reflexivity. Qed.

Theorem C08_fact_local_reads : unaudited_reads local_reads = [].
Proof. vm_compute. reflexivity. Qed.

Theorem C08_fact_state_then_local_error :
  state_then_lookup_error = [] /\ unaudited_write_errors state_then_write_error = [].
Proof. vm_compute. split; reflexivity. Qed.

Example C08_fact_globals_nonvacuous :
  (20 <=? Z.of_nat (List.length written_globals)) = true /\ (15 <=? Z.of_nat (List.length local_reads)) = true /\
  (3 <=? Z.of_nat (List.length state_then_write_error)) = true.
Proof. vm_compute. repeat split; reflexivity. Qed.
Print Assumptions C08_tracker_state_independent_of_local_inputs.
Print Assumptions C08_tracker_step_is_consensus_step.
Print Assumptions C08_fact_globals.
Print Assumptions C08_fact_local_reads.
Print Assumptions C08_fact_state_then_local_error.
Print Assumptions C08_fact_closures.

(* The in-memory copies of governance options across a restart (theories/Options.v).
   A restarted process rebuilds each copy from the committed record: whatever the old process held, the
   consensus reads after the restart return the option as persisted — for every continuation with block
   starts, finalisations, commits, further restarts and mempool checks under the writer discipline. *)
Theorem C08_option_copy_after_restart : forall post s, disciplined post = true ->
  snd (orun s (OStart :: post)) = snd (srun s (OStart :: post)).
Proof. intros post s. now apply coherent_after. Qed.
Print Assumptions C08_option_copy_after_restart.

(* tie to the source (regenerated on every run): every copy that has a reader on a consensus path is set
   by App.Prepare (the start-up path of an initialised chain); the callers of every accessor are audited —
   a handler that starts reading a copy Prepare does not rebuild (the ONS options of the domain store) is
   not in the table — and the writer discipline of C07 holds *)
Theorem C08_fact_option_copies_restored :
  not_restored option_accessor_calls = [] /\ unaudited_calls option_accessor_calls = [] /\
  foreign_uses option_field_uses = [] /\ early_writes option_accessor_calls = [] /\ unaudited_modes update_mode_calls = [].
Proof. vm_compute. repeat split; reflexivity. Qed.

Example C08_fact_option_copies_nonvacuous :
  not_restored [("data/fees.Store.SetupOpt"%string, "app.App.blockBeginner"%string, false)] <> [] /\
  unaudited_calls [("data/ons.DomainStore.GetOptions"%string, "action/ons.runRenew"%string, false)] <> [].
Proof. vm_compute. split; discriminate. Qed.
