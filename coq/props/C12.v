(* C12 — delegation pool consistency and undelegation maturity.
   Only property theorems here, each a short consequence of a lemma of proofs/DelegProofs.v.
   Model: theories/Deleg.v (key-level model of the pending-undelegation scan). *)
From stdpp Require Import gmap list.
From Coq Require Import ZArith NArith Lia.
From OL Require Import theories.Deleg theories.DelegCheck proofs.DelegProofs gen.Facts_Consts.
Local Open Scope Z_scope.

(* an address rendering used by the closed examples (any rendering works for the theorems) *)
Definition astr_ex : addr -> bytes := fun a => [65 + a]%N.

(* for EVERY genesis state and EVERY history, after every operation (in particular at every block
   boundary): pool = sum active + (genesis surplus) + (net direct transfers so far) *)
Theorem C12_pool_exact : forall astr s0 ops,
  pool (run astr s0 ops) =
  asum (active (run astr s0 ops)) + (pool s0 - asum (active s0)) + (donated (run astr s0 ops) - donated s0).
Proof. intros. pose proof (run_pool astr s0 ops). unfold gap in *. lia. Qed.
Print Assumptions C12_pool_exact.

(* FULL (no trigger guard since /repo 5fba2a6): the pool covers the active set *)
Theorem C12_pool_covers_active : forall astr s0 ops,
  asum (active s0) <= pool s0 ->
  asum (active (run astr s0 ops)) <= pool (run astr s0 ops).
Proof. intros. pose proof (run_pool astr s0 ops). unfold gap in *. lia. Qed.
Print Assumptions C12_pool_covers_active.

(* ... and equals it (up to the genesis surplus) when nobody transferred to the pool directly *)
Theorem C12_pool_equals_active_without_donation : forall astr s0 pre post,
  existsb is_donate (pre ++ post) = false ->
  pool (run astr s0 pre) - asum (active (run astr s0 pre)) = pool s0 - asum (active s0).
Proof.
  intros * H. rewrite existsb_app in H. apply orb_false_elim in H as [Hpre _].
  pose proof (run_pool astr s0 pre). pose proof (run_donated_none astr s0 pre Hpre). unfold gap in *. lia.
Qed.
Print Assumptions C12_pool_equals_active_without_donation.

(* the former witness of finding C12.negative_pool_donation (fixed by 5fba2a6) is harmless now:
   the negative SENDPOOL is rejected and the pool still covers the active set *)
Definition g_ex1 : st := genesis 4 (fun _ => 1000) 0 ∅ ∅ (fun _ => 0) ∅.
Definition ops_ex1 : list op := [Begin []; Delegate 0%N 10 1; Begin []; Donate 1%N (-4) 1].
Example C12_former_witness_negative_donation_harmless :
  trig_neg_donation ops_ex1 = true /\ results astr_ex g_ex1 ops_ex1 = [true; true; true; false] /\
  pool (run astr_ex g_ex1 ops_ex1) = 10 /\ asum (active (run astr_ex g_ex1 ops_ex1)) = 10.
Proof. vm_compute. auto. Qed.

(* non-vacuity: delegation, undelegation, reinvestment and a donation, non-trivial active set *)
Example C12_pool_nonvacuous :
  let ops := [Begin []; Delegate 0%N 10 1; Delegate 1%N 20 1; Begin [(0%N, 5); (1%N, 7)]; Undelegate 0%N 4 1;
              Reinvest 1%N 7 1; Donate 2%N 3 1; Begin []] in
  asum (active (run astr_ex g_ex1 ops)) = 33 /\ pool (run astr_ex g_ex1 ops) = 36.
Proof. vm_compute. auto. Qed.

(* proved on the STRINGS (lexicographic range test of IterateRange, Rangefix, decimal rendering of
   the height): the scan of block h visits the key of (n, a) only if n = h — for the pending
   undelegations (since /repo e19809f) and for the pending reward withdrawals *)
Theorem C12_undelegation_scan_exact : forall astr h n a, scan_und astr h n a = true -> n = h.
Proof. intros *. apply scan_exact. Qed.
Print Assumptions C12_undelegation_scan_exact.

Theorem C12_reward_scan_exact : forall astr h n a, scan_rw astr h n a = true -> n = h.
Proof. intros *. apply scan_exact. Qed.
Print Assumptions C12_reward_scan_exact.

(* hence the former trigger C12.pending_height_prefix_collision never fires, for any state and history *)
Theorem C12_no_scan_collides : forall astr ops s, collided (run astr s ops) = collided s.
Proof. exact no_scan_collides. Qed.
Print Assumptions C12_no_scan_collides.

(* FULL.  For EVERY genesis (balances, pool, active set, pending entries, rewards) and EVERY history,
   with maturity period k >= 1:
   - at every executed block n the maturation routine credited delegator a exactly what was due at n
     for a: the genesis entry (n,a) plus a's successful undelegations made at height n-k;
   - for a height n not yet reached nothing has been credited and the due amount is still pending.
   Since [paid s n a] is all that BeginBlock(n) credits to a for undelegations (C12_begin_credit) and
   the amount due at n appears in no other block's payment, every undelegated amount is paid once,
   at u+k, not earlier, not twice, and to its delegator only. *)
Theorem C12_paid_once_at_maturity : forall astr k b pl ac pe rw rp ops,
  (1 <= k)%N ->
  let s := run astr (genesis k b pl ac pe rw rp) ops in
  forall n a,
    ((1 <= n <= height s)%N -> paid s n a = und s n a + pget pe n a) /\
    ((height s < n)%N -> paid s n a = 0 /\ pget (pend s) n a = und s n a + pget pe n a).
Proof. intros * Hk s n a. by destruct (proj1 (genesis_ledgers astr k b pl ac pe rw rp ops Hk) n a). Qed.
Print Assumptions C12_paid_once_at_maturity.

(* the same maturity rule for reward withdrawals, FULL *)
Theorem C12_reward_withdrawals_paid_once : forall astr k b pl ac pe rw rp ops,
  (1 <= k)%N ->
  let s := run astr (genesis k b pl ac pe rw rp) ops in
  forall n a,
    ((1 <= n <= height s)%N -> rpaid s n a = rwd s n a + pget rp n a) /\
    ((height s < n)%N -> rpaid s n a = 0 /\ pget (rpend s) n a = rwd s n a + pget rp n a).
Proof. intros * Hk s n a. by destruct (proj2 (genesis_ledgers astr k b pl ac pe rw rp ops Hk) n a). Qed.
Print Assumptions C12_reward_withdrawals_paid_once.

(* what BeginBlock credits to a delegator is exactly these two payments *)
Theorem C12_begin_credit : forall astr s accr a,
  let s' := (step astr s (Begin accr)).1 in
  bal s' a - bal s a = paid s' (height s') a + rpaid s' (height s') a.
Proof. intros. subst s'. rewrite step_begin. cbn. rewrite N.eqb_refl. lia. Qed.
Print Assumptions C12_begin_credit.

(* tie to the source: the maturity period written at InitChain is the hard-coded constant, >= 1 *)
Theorem C12_fact_maturity_constant :
  netdeleg_RewardsMaturityTime = 4 /\ (1 <= Z.to_N netdeleg_RewardsMaturityTime)%N.
Proof. vm_compute. split; [reflexivity | discriminate]. Qed.

(* the former witness of finding C12.pending_height_prefix_collision (design observation E9, fixed by
   e19809f): genesis-loaded pending undelegations (20, d0) = 8 and (2, d0) = 5.  Now d0 is credited
   5 at height 2 and 8 at height 20, 13 in total (before: 8 at height 2, 8 again at 20, the 5 lost). *)
Definition g_ex2 : st :=
  genesis 4 (fun _ => 100) 0 ∅ (list_to_map [((20%N, 0%N), 8); ((2%N, 0%N), 5)]) (fun _ => 0) ∅.
Example C12_former_witness_collision_harmless :
  let s := run astr_ex g_ex2 (repeat (Begin []) 20) in
  trig_collision astr_ex g_ex2 (repeat (Begin []) 20) = false /\
  paid s 2%N 0%N = 5 /\ paid s 20%N 0%N = 8 /\ bal s 0%N = bal g_ex2 0%N + 13.
Proof. intros s. split; [exact (C12_no_scan_collides astr_ex _ g_ex2)|]. vm_compute. auto. Qed.

(* non-vacuity: a genesis with pending entries and a history with undelegations (two by the same
   delegator in one block); every amount is paid at its height *)
Example C12_paid_once_nonvacuous :
  let s0 := genesis 4 (fun _ => 100) 30 (list_to_map [(0%N, 30)])
                    (list_to_map [((5%N, 1%N), 7); ((3%N, 0%N), 2)]) (fun _ => 0) ∅ in
  let ops := [Begin []; Undelegate 0%N 4 1; Undelegate 0%N 6 1; Begin []; Begin []; Begin []; Begin []; Begin []] in
  let s := run astr_ex s0 ops in
  paid s 5%N 0%N = 10 /\ paid s 5%N 1%N = 7 /\ paid s 3%N 0%N = 2 /\ bal s 0%N = 100 - 2 + 12.
Proof. vm_compute. auto. Qed.

(* FULL (no trigger guard since /repo 1d1d85c): from a genesis whose pending entries are non-negative,
   every amount credited by the maturation routines is non-negative — BeginBlock never takes money
   from a delegator *)
Theorem C12_matured_payments_nonneg : forall astr k b pl ac pe rw rp ops,
  (1 <= k)%N ->
  (forall n a, 0 <= pget pe n a) -> (forall n a, 0 <= pget rp n a) ->
  let s := run astr (genesis k b pl ac pe rw rp) ops in
  forall n a, (1 <= n)%N -> 0 <= paid s n a /\ 0 <= rpaid s n a.
Proof.
  intros * Hk Hpe Hrp s n a Hn. destruct (genesis_ledgers astr k b pl ac pe rw rp ops Hk) as [Lu Lr].
  split; [by apply (ledger_paid_nonneg _ _ _ _ _ Lu) | by apply (ledger_paid_nonneg _ _ _ _ _ Lr)].
Qed.
Print Assumptions C12_matured_payments_nonneg.

(* the former witnesses of the findings C12.negative_undelegate and C12.negative_reward_withdrawal
   (fixed by 1d1d85c) are harmless now: the transaction is refused, nothing changes *)
Example C12_former_witness_negative_undelegate_harmless :
  let ops := [Begin []; Undelegate 0%N (-2000) 1; Begin []; Begin []; Begin []; Begin []] in
  let s := run astr_ex g_ex1 ops in
  trig_neg_undelegate ops = true /\
  results astr_ex g_ex1 ops = [true; false; true; true; true; true] /\
  aget (active s) 0%N = 0 /\ pool s = 0 /\ paid s 5%N 0%N = 0 /\ bal s 0%N = 1000.
Proof. vm_compute. repeat split; reflexivity. Qed.

Example C12_former_witness_negative_withdrawal_harmless :
  let ops := [Begin []; WithdrawRw 0%N (-2000) 1; Begin []; Begin []; Begin []; Begin []] in
  let s := run astr_ex g_ex1 ops in
  trig_neg_withdraw ops = true /\
  results astr_ex g_ex1 ops = [true; false; true; true; true; true] /\
  rew s 0%N = 0 /\ rpaid s 5%N 0%N = 0 /\ bal s 0%N = 1000.
Proof. vm_compute. repeat split; reflexivity. Qed.

(* FULL: no active delegation is ever negative, so "pool >= sum of active" means that the pool covers every
   delegator's delegation *)
Theorem C12_active_nonneg : forall astr ops s,
  (forall x, 0 <= aget (active s) x) -> forall x, 0 <= aget (active (run astr s ops)) x.
Proof. exact active_nonneg. Qed.
Print Assumptions C12_active_nonneg.

(* the former witness of finding C12.negative_reinvest (fixed by 1d1d85c): refused, harmless *)
Example C12_former_witness_negative_reinvest_harmless :
  let ops := [Begin []; Delegate 0%N 10 1; Reinvest 1%N (-4) 1] in
  let s := run astr_ex g_ex1 ops in
  trig_neg_reinvest ops = true /\ results astr_ex g_ex1 ops = [true; true; false] /\
  aget (active s) 1%N = 0 /\ rew s 1%N = 0 /\ pool s = 10 /\ aget (active s) 0%N = 10.
Proof. vm_compute. repeat split; reflexivity. Qed.

(* for EVERY genesis and history: reward balance = genesis + accrued - (withdrawn + reinvested); with
   non-negative accruals it is never negative, i.e. what was withdrawn or reinvested never exceeds
   what had accrued *)
Theorem C12_reward_withdrawal_bounded : forall astr k b pl ac pe rw rp ops a,
  let s := run astr (genesis k b pl ac pe rw rp) ops in
  rew s a = rw a + accrued s a - taken s a /\
  ((forall x, 0 <= rw x) -> forallb accr_nonneg ops = true ->
   0 <= rew s a /\ taken s a <= rw a + accrued s a).
Proof.
  intros. destruct (run_rewards astr (genesis k b pl ac pe rw rp) ops) as [Hb Hr].
  specialize (Hb a). unfold rbook in Hb. cbn in Hb. fold s in Hb, Hr. split; [lia|].
  intros H0 Ha. specialize (Hr H0 Ha a). lia.
Qed.
Print Assumptions C12_reward_withdrawal_bounded.

Example C12_reward_nonvacuous :
  let ops := [Begin []; Delegate 0%N 10 1; Begin [(0%N, 9)]; WithdrawRw 0%N 4 1; WithdrawRw 0%N 6 1; Reinvest 0%N 5 1] in
  let s := run astr_ex g_ex1 ops in
  forallb accr_nonneg ops = true /\ results astr_ex g_ex1 ops = [true; true; true; true; false; true] /\
  rew s 0%N = 0 /\ taken s 0%N = 9.
Proof. vm_compute. auto. Qed.
