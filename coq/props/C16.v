(* C16 — the EVM state adapter is equivalent to go-ethereum's reference state.
   The simulation lemmas are in proofs/EvmProofs.v; the witnesses and examples are evaluated here. *)
From stdpp Require Import gmap list.
From Coq Require Import ZArith.
From OL Require Import theories.EvmSpec theories.EvmAdapter theories.EvmCheck proofs.EvmProofs.
Local Open Scope Z_scope.

Definition contract_acct (x : addr) (b : Z) : start_acct :=
  {| sa_addr := x; sa_bal := b; sa_nonce := 1; sa_code := 1%N; sa_stor := [(0%N, 2); (1%N, 3)]; sa_native := false |}.
Definition plain_acct (x : addr) (b : Z) : start_acct :=
  {| sa_addr := x; sa_bal := b; sa_nonce := 0; sa_code := 0%N; sa_stor := []; sa_native := true |}.

(* (1) bisimulation.  [Inv a s] relates an adapter state (object slice + index map, per-object
   dirty/origin storage slices + index maps, journal, validRevisions, persistent layer) to a
   state of the reference semantics (account map, stack of copied states).  Every operation
   preserves it with EQUAL return values where [pstep_ok] holds: no trigger of a known defect
   fires, the client respects the interface contract ([pre_violated]), the run-time side
   condition of Finalise holds ([fin_okb]), and CreateAccount is applied only to an account that
   does not exist yet ([create_fresh]) — hence for every operation sequence, with arbitrary
   Snapshot/RevertToSnapshot nesting, the outputs coincide. *)
Theorem C16_bisim_step : forall a s o, Inv a s -> pstep_ok a o = true ->
  exists r a' s', astep a o = (r, a') /\ spec_step s o = (r, s') /\ Inv a' s'.
Proof. exact step_sim. Qed.
Print Assumptions C16_bisim_step.

Theorem C16_bisim : forall ops a s, Inv a s -> pguardedb a ops = true ->
  aoutputs a ops = spec_outputs s ops /\ Inv (arun a ops).2 (spec_run s ops).2.
Proof. exact bisim. Qed.
Print Assumptions C16_bisim.

(* (2) every deterministic client: the interpreter is the same go-ethereum code on both sides
   and reaches the state only through this interface, so it is a function from the answers seen
   so far to the next call; for every such function the two call/answer traces coincide. *)
Theorem C16_any_client : forall (strat : list out -> option op) n a s h, Inv a s ->
  client_guard n strat a h = true -> client_run_a n strat a h = client_run_s n strat s h.
Proof. exact any_client. Qed.
Print Assumptions C16_any_client.

(* (3) the relation holds between the adapter over any admissible persistent starting state
   (distinct addresses, no empty account, native-only records with non-zero balance, non-zero storage
   words in distinct slots) and the reference state with the same starting accounts; hence the end-to-end statement *)
Theorem C16_init : forall st, start_okb st = true -> Inv (a_init st) (spec_init st).
Proof. exact Inv_start. Qed.
Print Assumptions C16_init.

Theorem C16_equivalence : forall st ops, start_okb st = true -> pguardedb (a_init st) ops = true ->
  aoutputs (a_init st) ops = spec_outputs (spec_init st) ops.
Proof. intros st ops Hs Hg. exact (proj1 (bisim ops _ _ (Inv_start st Hs) Hg)). Qed.
Print Assumptions C16_equivalence.

Theorem C16_equivalence_any_client : forall (strat : list out -> option op) n st, start_okb st = true ->
  client_guard n strat (a_init st) [] = true ->
  client_run_a n strat (a_init st) [] = client_run_s n strat (spec_init st) [].
Proof. intros strat n st Hs Hg. exact (any_client strat n _ _ [] (Inv_start st Hs) Hg). Qed.
Print Assumptions C16_equivalence_any_client.

Example C16_start_nonvacuous :
  start_okb [contract_acct 11%N 50; plain_acct 12%N 7;
             {| sa_addr := 13%N; sa_bal := 0; sa_nonce := 2; sa_code := 0%N; sa_stor := []; sa_native := false |}] = true.
Proof. vm_compute. reflexivity. Qed.

(* non-vacuity: a concrete multi-transaction sequence with nested snapshots, reverts across
   account creation, storage, nonce, balance, refund, self-destruct, Finalise and a block commit
   satisfies the guard *)
Example C16_guard_nonvacuous :
  pguardedb (a_init [])
    [AddBalance 11%N 100; SetState 11%N 1%N 7; Snapshot; SubBalance 11%N 40; AddBalance 12%N 40;
     SetNonce 12%N 1; Snapshot; SetState 11%N 1%N 0; SetState 12%N 2%N 5; AddRefund 3; Suicide 12%N;
     GetBalance 12%N; RevertToSnapshot 1; GetState 11%N 1%N; HasSuicided 12%N; GetRefund;
     RevertToSnapshot 0; Exist 12%N; GetBalance 11%N; GetCommittedState 11%N 1%N; Empty 12%N;
     Finalise; GetCommittedState 11%N 1%N; Snapshot; SetState 11%N 1%N 0; AddBalance 13%N 5; RevertToSnapshot 0;
     SubBalance 11%N 100; SetNonce 11%N 1; Finalise; BlockCommit; GetBalance 11%N; GetState 11%N 1%N; Snapshot;
     AddBalance 14%N 0; Finalise; Exist 14%N;
     CreateAccount 15%N; SetNonce 15%N 1; Snapshot; SetCode 15%N 2%N; GetCodeSize 15%N; RevertToSnapshot 0; GetCodeHash 15%N;
     SetCode 15%N 3%N; Finalise; GetCode 15%N; GetCodeHash 15%N; Suicide 15%N; Finalise; Exist 15%N; GetCode 15%N;
     Snapshot; AddLog 11%N 1%N; AlAddSlot 11%N 2%N; Snapshot; AddLog 12%N 2%N; AlAddAddr 12%N; GetLogs; AlHasSlot 11%N 2%N;
     RevertToSnapshot 1; GetLogs; AlHasAddr 12%N; AlHasAddr 11%N; RevertToSnapshot 0; AlHasSlot 11%N 2%N; GetLogs; Finalise; GetLogs] = true.
Proof. vm_compute. reflexivity. Qed.

(* the full statement (no guard) is false of the faithful adapter model; each witness is replayed
   on the real code by the check (findings/C16_*.json) *)
Theorem C16_refuted_removed_account_residue : exists st ops,
  first_class (a_init st) ops = 1%nat /\ aoutputs (a_init st) ops <> spec_outputs (spec_init st) ops.
Proof.
  exists [contract_acct 11%N 0; plain_acct 12%N 7],
    [Suicide 11%N; SubBalance 12%N 3; AddBalance 11%N 3; Finalise; Exist 11%N; GetBalance 11%N; GetState 11%N 0%N].
  split; [vm_compute; reflexivity | vm_compute; discriminate].
Qed.

(* repaired by fix 8b9b1c9 (RemoveAccount also writes the balance record): the former witness of
   C16.selfdestruct_residue now satisfies the guard and the outputs coincide *)
Example C16_fixed_selfdestruct_residue :
  let st := [{| sa_addr := 11%N; sa_bal := 50; sa_nonce := 1; sa_code := 1%N; sa_stor := []; sa_native := false |};
             plain_acct 12%N 7] in
  let ops := [AddBalance 12%N 50; Suicide 11%N; Finalise; Exist 11%N; GetBalance 11%N; BlockCommit; Exist 11%N;
              SubBalance 12%N 57; Finalise; Exist 12%N; GetBalance 12%N] in
  guardedb (a_init st) ops = true /\ aoutputs (a_init st) ops = spec_outputs (spec_init st) ops.
Proof. vm_compute. split; reflexivity. Qed.

Theorem C16_refuted_create_over_storage : exists st ops,
  first_class (a_init st) ops = 2%nat /\ aoutputs (a_init st) ops <> spec_outputs (spec_init st) ops.
Proof.
  exists [contract_acct 11%N 5], [CreateAccount 11%N; SetNonce 11%N 1; GetState 11%N 0%N].
  split; [vm_compute; reflexivity | vm_compute; discriminate].
Qed.

(* repaired by fix 4b2faa6 (journal.deleteDirty re-indexes, balance/self-destruct undo entries no
   longer journal): the former witnesses of C16.stale_dirty_index (panic with index out of range;
   a write lost at Finalise through an aliased dirty counter; the RIPEMD touch surviving a revert)
   now satisfy the guard and the outputs coincide *)
Example C16_fixed_stale_dirty_index :
  let st := [plain_acct 11%N 9; {| sa_addr := 12%N; sa_bal := 4; sa_nonce := 1; sa_code := 1%N; sa_stor := [(0%N, 2)]; sa_native := false |};
             plain_acct 13%N 2] in
  let ops1 := [Snapshot; SetNonce 12%N 3; AddBalance 13%N 1; RevertToSnapshot 0; AddBalance 13%N 2; GetBalance 13%N;
               Finalise; GetBalance 13%N; GetNonce 12%N] in
  let ops2 := [Snapshot; SetNonce 12%N 3; AddBalance 13%N 1; RevertToSnapshot 0; SetState 12%N 0%N 1; Snapshot;
               SetNonce 13%N 1; RevertToSnapshot 1; Finalise; GetState 12%N 0%N; GetNonce 13%N] in
  let ops3 := [Snapshot; SetState 12%N 0%N 1; AddBalance 3%N 0; RevertToSnapshot 0; AddBalance 3%N 0; Finalise; Exist 3%N;
               GetState 12%N 0%N] in
  pguardedb (a_init st) ops1 = true /\ aoutputs (a_init st) ops1 = spec_outputs (spec_init st) ops1 /\
  pguardedb (a_init st) ops2 = true /\ aoutputs (a_init st) ops2 = spec_outputs (spec_init st) ops2 /\
  pguardedb (a_init st) ops3 = true /\ aoutputs (a_init st) ops3 = spec_outputs (spec_init st) ops3.
Proof. vm_compute. repeat split; reflexivity. Qed.
