(* C20 — domain names: exclusive ownership, owner-only changes, paid transfers.
   The property theorems; the argument handler by handler is in the [run_op_*] lemmas of
   proofs/OnsProofs.v and proofs/OnsInv.v, which rest on what a successful handler did to the
   state (the [run_*_Some] lemmas).
   Model: theories/Ons.v (the run* functions of action/ons, data/ons, fee step, session rule). *)
From Coq Require Import ZArith Ascii String.
From stdpp Require Import gmap list strings.
From OL Require Import theories.Ons theories.OnsCheck proofs.OnsProofs proofs.OnsInv
  theories.Options gen.Facts_Options.
Local Open Scope Z_scope.
Local Open Scope string_scope.

(* (1) Owner-only changes, paid transfers.  For every state, every delivered transaction (any
   message, any signer, any context, any fee) and every name n: if n's record (owner,
   beneficiary, heights, expiry, sale status and price, active flag, uri — or its existence)
   differs after the transaction, then the transaction succeeded and
     - its signer owns n or owns a name of which n is a sub-name, or
     - it is the first registration of the free top-level name n by the signer, or
     - it is a purchase of n in which — every account's balance is accounted for — the buyer paid
       the offer >= the asking price, the previous owner received exactly the asking price and
       the rest went to the fee pool; or n was expired and the buyer paid >= the base price, or
     - n is a sub-name deleted by such a paid purchase of a name above it. *)
Theorem C20_change_authorised : forall s t s' ok, deliver s t = (s', ok) ->
  forall n, reg s' !! n <> reg s !! n -> ok = true /\ change_justified s s' t n.
Proof.
  intros s t s' ok H n. revert H. apply (deliver_cases s t); [by intros [= <- <-]|].
  intros s1 s2 Hop Hfee Hr [= <- <-] Hn. rewrite Hr in Hn. split; [done|by eapply run_op_authorised].
Qed.
Print Assumptions C20_change_authorised.

(* the same over all histories (transactions of any senders and block ends, by induction) *)
Theorem C20_history_authorised : forall evs s n,
  reg (run s evs) !! n <> reg s !! n -> history_justified s evs n.
Proof.
  induction evs as [|[t|] evs IH]; intros s n Hn; simpl in *; [done| |by apply IH].
  destruct (decide (reg (deliver s t).1 !! n = reg s !! n)) as [Heq|Hne].
  - right. apply IH. by rewrite Heq.
  - left. destruct (deliver s t) as [s' ok] eqn:H.
    by destruct (C20_change_authorised _ _ _ _ H n Hne) as [-> ?].
Qed.
Print Assumptions C20_history_authorised.

(* (2) frame: strangers' transactions never change a name they have no authority over *)
Theorem C20_strangers_frame : forall s t n,
  ~ authority s (signer (t_op t)) n -> ~ targets (t_op t) n ->
  reg (deliver s t).1 !! n = reg s !! n.
Proof.
  intros s t n Hna Hnt. destruct (deliver s t) as [s' ok] eqn:H. simpl.
  destruct (decide (reg s' !! n = reg s !! n)) as [|Hn]; [done|].
  by destruct (C20_change_authorised _ _ _ _ H n Hn) as [_ [?|?]%justified_targets].
Qed.
Print Assumptions C20_strangers_frame.

(* sale status changes only by the owner's signature: whenever a name is on sale after a
   transaction, it was on sale before for the same owner at the same price, or the transaction
   is that owner's own sell transaction at that price.  In particular a purchase (live or of an
   expired name) never leaves the buyer's name on sale at the previous owner's price. *)
Theorem C20_listing_authored : forall s t n d',
  reg (deliver s t).1 !! n = Some d' -> d_onsale d' = true -> listing_ok s (t_op t) n d'.
Proof.
  intros s t n d'. apply (deliver_cases s t); simpl; [left; by exists d'|].
  intros s1 s2 H _ ->. by eapply run_op_listing.
Qed.
Print Assumptions C20_listing_authored.

(* over histories: the owner of an on-sale name signed a sell transaction for it at that price
   while owning it (or the listing was already there at the start) *)
Theorem C20_history_listing_authored : forall evs s n d',
  reg (run s evs) !! n = Some d' -> d_onsale d' = true ->
  (exists d, reg s !! n = Some d /\ d_onsale d = true /\ d_owner d = d_owner d' /\ d_price d = d_price d')
  \/ listed_by s evs n (d_owner d') (d_price d').
Proof.
  induction evs as [|[t|] evs IH]; intros s n d' Hn Hon; simpl in *.
  - left. by exists d'.
  - destruct (IH _ _ _ Hn Hon) as [(d & Hd & Hdon & <- & <-)|Hl]; [|by right; right].
    destruct (C20_listing_authored s t n d Hd Hdon) as [?|?]; [by left|by right; left].
  - destruct (IH _ _ _ Hn Hon); [by left|by right].
Qed.
Print Assumptions C20_history_listing_authored.

(* a failed transaction leaves no trace at all *)
Theorem C20_failed_no_trace : forall s t s', deliver s t = (s', false) -> s' = s.
Proof. intros s t s'. apply (deliver_cases s t); congruence. Qed.

(* (4) at most one record per name: by construction, the registry of the model is a finite map;
   that the implementation's store decodes to one record per name is checked on the traces
   (names_nodup in theories/OnsCheck.v, monitor class 6) *)
Theorem C20_one_record_per_name : forall s n d1 d2,
  reg s !! n = Some d1 -> reg s !! n = Some d2 -> d1 = d2.
Proof. congruence. Qed.

(* the sub-name range of p (reversed-key prefix "lo.p." in data/ons/store.go) contains exactly
   the names pre.p with a non-empty pre: a look-alike sibling ("xn.ol" for "n.ol") is not in it *)
Theorem C20_sub_range : forall p n,
  is_sub_of p n = true <-> exists pre : name, pre <> [] /\ n = (pre ++ p)%list.
Proof.
  intros p n. rewrite is_sub_of_true. split.
  - intros [Hl Hd]. exists (take (length n - length p) n). split.
    + intros Hnil%(f_equal length). rewrite take_length in Hnil. simpl in Hnil. lia.
    + pose proof (take_drop (length n - length p) n) as E. by rewrite Hd in E.
  - intros (pre & Hpre & ->). rewrite app_length. destruct pre; [done|]. split; [simpl; lia|].
    by rewrite Nat.add_sub, drop_app.
Qed.
Theorem C20_sub_range_parent : forall p n, length p = 2%nat -> is_sub_of p n = true ->
  parent_name n = p /\ is_sub n = true.
Proof. exact is_sub_of_parent. Qed.
Example C20_sub_range_ex :
  is_sub_of ["n";"ol"] ["a";"n";"ol"] = true /\ is_sub_of ["n";"ol"] ["c";"a";"n";"ol"] = true /\
  is_sub_of ["n";"ol"] ["xn";"ol"] = false /\ is_sub_of ["n";"ol"] ["a";"xn";"ol"] = false /\
  is_sub_of ["n";"ol"] ["n";"ol"] = false.
Proof. vm_compute. repeat split. Qed.

(* (3) expiry = exactly the blocks bought, for ALL amounts: since /repo bd3d183 a block count that
   does not fit an int64 expiry height is refused instead of wrapped (finding
   C20.expiry_blocks_ge_2p63, fixed).  The expiry is never in the past after a paid create /
   renew / purchase. *)
Theorem C20_create_expiry : forall e s a b n uo u price s1,
  run_create e s a b n uo u price = Some s1 -> is_sub n = false ->
  0 < o_perblock (e_opts e) -> 0 <= e_v e ->
  exists d, reg s1 !! n = Some d /\
    d_expiry d = e_v e + (price - o_base (e_opts e)) / o_perblock (e_opts e) /\
    e_v e <= d_expiry d.
Proof.
  intros e s a b n uo u price s1 H Hs Hpb Hv.
  apply run_create_Some in H. destruct H as [b1 x Hlt _ _ _ Hx].
  rewrite Hs in Hx. destruct Hx as (ext & Hbb & Hov & ->).
  eapply bought_expiry in Hbb as [-> ?]; [|done|lia..].
  eexists. simpl. rewrite lookup_insert. split_and!; [done..|simpl; lia].
Qed.
Print Assumptions C20_create_expiry.

(* perBlockFees = 1, 10 OLT = 10^19 units >= 2^63 blocks: refused without a trace; the 9 OLT
   registration next to it is served exactly *)
Definition C20_big_e : env :=
  {| e_h := 2; e_v := 1; e_opts := {| o_perblock := 1; o_base := 1; o_tlds := ["ol"] |} |}.
Example C20_create_overflow_refused :
  let s := init_state {[ 0%N := 1000000000000000000000000 ]} in
  let t price := {| t_op := Create 0%N None ["n";"ol"] true "http://x.y" price; t_env := C20_big_e;
                    t_payer := 0%N; t_fee := Some 1; t_static_ok := true; t_nil_benef := false |} in
  deliver s (t 10000000000000000000) = (s, false) /\
  (deliver s (t 9000000000000000000)).2 = true /\
  (d_expiry <$> reg (deliver s (t 9000000000000000000)).1 !! ["n";"ol"]) = Some 9000000000000000000.
Proof. vm_compute. repeat split. Qed.

(* a sub-name gets its parent's expiry *)
Theorem C20_create_sub_expiry : forall e s a b n uo u price s1,
  run_create e s a b n uo u price = Some s1 -> is_sub n = true ->
  exists d p, reg s1 !! n = Some d /\ reg s !! parent_name n = Some p /\ d_expiry d = d_expiry p.
Proof.
  intros e s a b n uo u price s1 H Hs.
  apply run_create_Some in H. destruct H as [b1 x _ _ _ _ Hx].
  rewrite Hs in Hx. destruct Hx as (p & Hp & _ & ->).
  eexists _, p. simpl. by rewrite lookup_insert.
Qed.

(* renewal: only the owner, of a name that is not expired, pays the price to the pool; expiry
   extended by exactly price/perBlock blocks; every committed sub-name follows
   ([int64 (d_expiry d)]: the stored field is a Go int64) *)
Theorem C20_renew_expiry : forall e s a n price s1, run_renew e s a n price = Some s1 ->
  0 < o_perblock (e_opts e) ->
  exists d d', reg s !! n = Some d /\ reg s1 !! n = Some d' /\ d_owner d = a /\
    pool s1 = pool s + price /\ e_v e <= d_expiry d /\
    (int64 (d_expiry d) ->
     d_expiry d' = d_expiry d + price / o_perblock (e_opts e) /\ d_expiry d <= d_expiry d') /\
    (forall m dm, visited s n m = true -> reg s !! m = Some dm ->
       exists dm', reg s1 !! m = Some dm' /\ d_expiry dm' = d_expiry d').
Proof.
  intros e s a n price s1 H Hpb.
  apply run_renew_Some in H. destruct H as [d b1 ext Hd Ho _ Hex Hlt _ Hbb Hov].
  eexists d, _. simpl. rewrite lookup_insert. split_and!; [done..| |].
  - intros [Hi _]. simpl. eapply bought_expiry in Hbb as [-> ?]; [|done|lia..]. lia.
  - intros m dm Hv Hm. rewrite lookup_insert_ne by (by apply is_sub_of_ne, (visited_sub s)).
    rewrite lookup_map_subs, Hv, Hm. by eexists.
Qed.
Print Assumptions C20_renew_expiry.

Theorem C20_purchase_expiry : forall e s buyer acct n offer s1,
  run_purchase e s buyer acct n offer = Some s1 -> 0 < o_perblock (e_opts e) -> 0 <= e_v e ->
  exists d d', reg s !! n = Some d /\ reg s1 !! n = Some d' /\ d_owner d' = buyer /\
    d_onsale d' = false /\ d_price d' = None /\ d_active d' = true /\
    let paid_for_time := if sale_branch e d then offer - default 0 (d_price d)
                         else offer - o_base (e_opts e) in
    (int64 (d_expiry d) ->
     d_expiry d' = Z.max (d_expiry d) (e_v e) + paid_for_time / o_perblock (e_opts e) /\
     e_v e <= d_expiry d').
Proof.
  intros e s buyer acct n offer s1 H Hpb Hv.
  apply run_purchase_Some in H. destruct H as [d b2 rm ext b3 Hd _ Hpay Hov _].
  eexists d, _. simpl. rewrite lookup_insert. split_and!; [done..|]. intros [Hi _]. simpl.
  destruct Hpay as [q b1 ext -> -> Hle _ Hbb|ext -> _ Hbase Hbb]; simpl;
    (eapply bought_expiry in Hbb as [-> ?]; [lia|done..|lia|lia]).
Qed.
Print Assumptions C20_purchase_expiry.

(* Exclusive ownership below a name: "every sub-name is owned by its parent's owner" is FALSE of
   the faithful model.  DeleteAllSubdomains iterates the committed tree's keys, so a sub-name
   registered earlier in the same block survives the purchase of its parent and stays with the
   previous owner (who can still update it).  Known finding C20.purchase_misses_uncommitted_sub. *)
Definition C20_e (h : Z) : env :=
  {| e_h := h; e_v := h - 1; e_opts := {| o_perblock := 1; o_base := 5; o_tlds := ["ol"] |} |}.
Definition C20_tx (h : Z) (o : op) : event :=
  Tx {| t_op := o; t_env := C20_e h; t_payer := signer o; t_fee := Some 1;
        t_static_ok := true; t_nil_benef := false |}.
Definition C20_witness : list event :=
  [ C20_tx 2 (Create 0%N (Some 0%N) ["n";"ol"] true "http://x.y" 100); EndBlock;
    C20_tx 3 (Sell 0%N ["n";"ol"] 20 false); EndBlock;
    C20_tx 4 (Create 0%N (Some 0%N) ["a";"n";"ol"] true "http://x.y" 6);
    C20_tx 4 (Purchase 1%N (Some 1%N) ["n";"ol"] 30); EndBlock;
    C20_tx 6 (Update 0%N (Some 0%N) ["a";"n";"ol"] true true "http://old.owner") ].

Theorem C20_sub_owner_refuted_1 :
  let s0 := init_state {[ 0%N := 1000; 1%N := 1000 ]} in
  let s5 := run s0 (take 6 C20_witness) in
  let s := run s0 C20_witness in
  trig_purchase_uncommitted s5 (Purchase 1%N (Some 1%N) ["n";"ol"] 30) = true /\
  exists d p, reg s !! ["a";"n";"ol"] = Some d /\ reg s !! ["n";"ol"] = Some p /\
    d_owner p = 1%N /\ d_owner d = 0%N /\ d_uri d = "http://old.owner".
Proof.
  vm_compute. split; [reflexivity|]. eexists _, _. repeat split.
Qed.

(* ... and it holds outside that trigger: every transaction that is not a purchase meeting an
   uncommitted sub-name of the purchased name preserves "stored names have >= 2 labels and every
   sub-name's parent exists and has the same owner"; by induction over histories from the
   empty registry. *)
Theorem C20_sub_owner_partial : forall s t,
  trig_purchase_uncommitted s (t_op t) = false -> sub_owner_inv s -> sub_owner_inv (deliver s t).1.
Proof. exact (deliver_guarded _ (subs_agree d_owner) run_op_sub_owner_inv). Qed.
Print Assumptions C20_sub_owner_partial.

Theorem C20_sub_owner_history_partial : forall evs b,
  no_trigger (init_state b) evs -> sub_owner_inv (run (init_state b) evs).
Proof.
  intros evs b.
  exact (history_guarded _ (subs_agree d_owner) run_op_sub_owner_inv evs _ (init_subs_agree d_owner b)).
Qed.
Print Assumptions C20_sub_owner_history_partial.

(* non-vacuity: the first five events of the witness history (up to and including the
   registration of a.n.ol) never fire the trigger *)
Example C20_sub_owner_nonvacuous :
  no_trigger (init_state {[ 0%N := 1000; 1%N := 1000 ]}) (take 5 C20_witness).
Proof. vm_compute. repeat split. Qed.

(* "A sub-name expires with its parent": every sub-name's expiry height EQUALS its parent's.
   Renewal sets the expiry of ALL committed sub-names (C20_renew_expiry, last clause, over the
   whole sub-name range); as an invariant over histories it holds outside the same trigger region
   (extended to renewals: the parent is renewed or purchased while a sub-name registered in this
   block is not yet in the committed tree) and is refuted inside it by a closed witness. *)
Theorem C20_sub_expiry_partial : forall s t,
  trig_uncommitted s (t_op t) = false -> sub_expiry_eq_inv s -> sub_expiry_eq_inv (deliver s t).1.
Proof. exact (deliver_guarded _ (subs_agree d_expiry) run_op_sub_expiry_inv). Qed.
Print Assumptions C20_sub_expiry_partial.

Theorem C20_sub_expiry_history_partial : forall evs b,
  no_trigger_u (init_state b) evs -> sub_expiry_eq_inv (run (init_state b) evs).
Proof.
  intros evs b.
  exact (history_guarded _ (subs_agree d_expiry) run_op_sub_expiry_inv evs _ (init_subs_agree d_expiry b)).
Qed.
Print Assumptions C20_sub_expiry_history_partial.

Definition C20_witness_renew : list event :=
  [ C20_tx 2 (Create 0%N (Some 0%N) ["n";"ol"] true "http://x.y" 100); EndBlock;
    C20_tx 3 (Create 0%N (Some 0%N) ["b";"n";"ol"] true "http://x.y" 6); EndBlock;
    C20_tx 4 (Create 0%N (Some 0%N) ["a";"n";"ol"] true "http://x.y" 6);
    C20_tx 4 (Renew 0%N ["n";"ol"] 10); EndBlock ].

Theorem C20_sub_expiry_refuted_1 :
  let s0 := init_state {[ 0%N := 1000 ]} in
  let s3 := run s0 (take 5 C20_witness_renew) in
  let s := run s0 C20_witness_renew in
  trig_uncommitted s3 (Renew 0%N ["n";"ol"] 10) = true /\
  (d_expiry <$> reg s !! ["n";"ol"]) = Some 106 /\
  (d_expiry <$> reg s !! ["b";"n";"ol"]) = Some 106 /\   (* committed sub-name: follows *)
  (d_expiry <$> reg s !! ["a";"n";"ol"]) = Some 96.       (* registered in this block: left behind *)
Proof. vm_compute. repeat split. Qed.

Example C20_sub_expiry_nonvacuous :
  no_trigger_u (init_state {[ 0%N := 1000 ]}) (take 5 C20_witness_renew).
Proof. vm_compute. repeat split. Qed.

(* non-vacuity: the hypotheses of (1) and (3) are satisfiable by successful, record-changing
   transactions (the paid purchase of the witness history: seller +20, buyer -30-fee) *)
Example C20_nonvacuous :
  let s0 := init_state {[ 0%N := 1000; 1%N := 1000 ]} in
  let s3 := run s0 (take 4 C20_witness) in
  let t := {| t_op := Purchase 1%N (Some 1%N) ["n";"ol"] 30; t_env := C20_e 4; t_payer := 1%N; t_fee := Some 1;
             t_static_ok := true; t_nil_benef := false |} in
  (deliver s3 t).2 = true /\
  (d_owner <$> reg s3 !! ["n";"ol"]) = Some 0%N /\
  (d_owner <$> reg (deliver s3 t).1 !! ["n";"ol"]) = Some 1%N /\
  (d_expiry <$> reg (deliver s3 t).1 !! ["n";"ol"]) = Some (96 + 10) /\
  getbal (bal (deliver s3 t).1) 0%N = getbal (bal s3) 0%N + 20 /\
  getbal (bal (deliver s3 t).1) 1%N = getbal (bal s3) 1%N - 30 - 1.
Proof. vm_compute. repeat split. Qed.

(* tie to the source (regenerated on every run): the model prices every transaction with the ONS options AS
   PERSISTED in the state the transaction runs on (an input of every step).  The domain store also holds a copy
   of those options in memory; no handler of action/ons (nor any other transaction path) reads it — the only
   callers of DomainStore.GetOptions are start-up functions — so what the copy holds cannot enter a price or
   an expiry (theories/Options.v: an unread copy is invisible). *)
Theorem C20_fact_prices_from_persisted_options :
  filter (fun '(a, c) => String.prefix "data/ons.DomainStore." a) (unaudited_calls option_accessor_calls) = [] /\
  filter (fun '(f, fn) => String.prefix "data/ons.DomainStore." f) (foreign_uses option_field_uses) = [].
Proof. vm_compute. split; reflexivity. Qed.
