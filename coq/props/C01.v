(* C01 — replica determinism.  Only property theorems here, and the audited site tables (trusted)
   the regenerated facts are checked against. *)
From stdpp Require Import gmap list sorting.
From Coq Require Import ZArith String.
From OL Require Import theories.Store theories.Abci theories.Restart theories.Nondet
  proofs.StoreProofs proofs.RestartProofs proofs.NondetProofs gen.Facts_Nondet
  theories.Globals proofs.GlobalsProofs gen.Facts_Globals.
From OL Require theories.Replay.
Local Open Scope Z_scope.

(* (1) Go map iteration is an arbitrary permutation chosen per loop.  For each loop idiom that
   the site table below admits on a consensus path, the loop's result is independent of it. *)
Theorem C01_collect_then_sort : forall (V : Type) (m : gmap Z V) l l',
  range_order m l -> range_order m l' -> collect_sort l.*1 = collect_sort l'.*1.
Proof.
  intros V m l l' H1 H2. apply collect_sort_order_independent, fmap_Permutation, (range_order_perm m); assumption.
Qed.
Print Assumptions C01_collect_then_sort.

Theorem C01_build_map : forall (V W : Type) (f : Z -> V -> W) (m : gmap Z V) l l',
  range_order m l -> range_order m l' -> build_map f l = build_map f l'.
Proof.
  intros V W f m l l' H1 H2. apply build_map_order_independent; eauto using range_order_perm, range_order_NoDup.
Qed.

Theorem C01_accumulate : forall (V : Type) (f : Z -> V -> Z) (m : gmap Z V) l l',
  range_order m l -> range_order m l' -> accumulate f l = accumulate f l'.
Proof. intros V f m l l' H1 H2. eapply accumulate_order_independent, range_order_perm; eassumption. Qed.

Theorem C01_find_unique : forall (V : Type) (p : Z -> V -> bool) (m : gmap Z V) l l',
  range_order m l -> range_order m l' ->
  (forall k1 v1 k2 v2, m !! k1 = Some v1 -> m !! k2 = Some v2 -> p k1 v1 = true -> p k2 v2 = true -> k1 = k2) ->
  find_unique p l = find_unique p l'.
Proof.
  intros V p m l l' H1 H2 Hu. apply find_unique_order_independent; [exact (range_order_perm m l l' H1 H2)|].
  unfold range_order in H1. intros [k1 v1] [k2 v2]. rewrite H1, !elem_of_map_to_list. intros Hx Hy Hpx Hpy.
  pose proof (Hu _ _ _ _ Hx Hy Hpx Hpy) as ->. congruence.
Qed.

(* an effectful body run in map order is NOT order independent (why such a site is a defect):
   a body that appends the key to a log sees the two orders of a two-entry map *)
Theorem C01_effectful_body_refuted : exists (m : gmap Z Z) l l',
  range_order m l /\ range_order m l' /\ l.*1 <> l'.*1.
Proof.
  exists {[1:=10; 2:=20]}, (map_to_list {[1:=10; 2:=20]}), (reverse (map_to_list {[1:=10; 2:=20]})).
  unfold range_order. split; [reflexivity|split; [apply reverse_Permutation|vm_compute; discriminate]].
Qed.

(* (2) the block transcript (verdicts, committed version, committed tree, tree-call log — the root
   hash is a function of the log) is a function of the block and the committed state only: the
   model of the store and of the wrapper has no other input, so two replicas that agree on the
   durable state agree on every later transcript, whatever their caches, sessions, gas counters
   or LastVersion were (node-local leftovers). *)
Theorem C01_transcript_function_of_disk : forall s s' b, durable s -> same_disk s s' ->
  run_blk (do_reopen s') b = run_blk s b.
Proof. exact run_blk_after_reopen. Qed.
Print Assumptions C01_transcript_function_of_disk.

(* (3) tie to the source, regenerated on every run: every `range` over a map in the consensus
   packages is a site (id, hash of the normalised loop) of an admitted idiom.  AUDIT (trusted):
   the class of each site was assigned by reading the loop; the hash pins the text that was read,
   so an edited or new loop is unclassified and breaks the obligation. *)
Definition site_table : list (string * string * idiom) := [
  ("app:App.rpcStarter#range1", "fe45768b067f", INotConsensus);
  ("app:handleBlockRewards#range1", "d0b3d0217f8f", ICollectSort);
  ("chains/ethereum:mapkey#range1", "3068c433a41d", IFindUnique);
  ("data/balance:Balance.String#range1", "d3143110f60f", INotConsensus);
  ("data/balance:CurrencySet.GetCurrencies#range1", "dc6ca4e309b0", IBuildMap);
  ("data/delegation:DelegationStore.LoadState#range1", "3a01799c7b74", ICollectSort);
  ("data/evidence:EvidenceStore.CleanTracker#range1", "3615081c1915", ICollectSort);
  ("data:ContractData.Update#range1", "1fa1a1d40451", IBuildMap);
  ("data:ContractData.UpdateByJSONData#range1", "0953a28d4170", IBuildMap);
  ("data:StorageRouter.WithState#range1", "49c9a092a4e6", IBuildMap);
  ("external_apps:RegisterExtApp#range1", "d17ee4428b42", INotConsensus);
  ("external_apps:RegisterExtApp#range2", "6d092d10bf21", INotConsensus);
  ("identity:ValidatorStore.CheckMaliciousValidators#range1", "e063fb439e4c", ICollectSort);
  ("identity:ValidatorStore.ExecuteAllegationTracker#range1", "0b7e1a61e70c", ICollectSort);
  ("identity:ValidatorStore.GetEndBlockUpdate#range1", "a8452ae5044c", ICollectSort);
  ("storage:KeyValue.Dump#range1", "e7e719f78c8d", INotConsensus);
  ("storage:KeyValueSession.Dump#range1", "e7e719f78c8d", INotConsensus);
  ("storage:cacheSession.Iterate#range1", "05120ec5af91", INotConsensus);
  ("storage:sessionCache.DumpState#range1", "eb0c84437033", INotConsensus);
  ("utils:PrintStringMap#range1", "549d682b19c6", INotConsensus);
  ("vm:CopyCommitStateDB#range1", "39cf33127149", IBuildMap);
  ("vm:CopyCommitStateDB#range2", "6d9917ae30ea", IBuildMap);
  ("vm:accessList.Copy#range1", "fee096ac17ef", IBuildMap);
  ("vm:accessList.Copy#range2", "bb2a0b3fc372", IBuildMap)
]%string.

Theorem C01_fact_map_ranges : bad_sites site_table false map_range_sites = [].
Proof. vm_compute. reflexivity. Qed.

(* wall clock, random sources, UUIDs, environment reads, goroutines and selects in the consensus
   packages: each is on the audited list of sites that cannot reach state or results
   (start-up, job bus of the witness node, key-file naming, ids of node-local internal
   transactions whose handlers ignore them) *)
Definition ambient_allowed : list string := [
  "app:App.Prepare#go1"; "app:App.Prepare#os.Getenv1";
  "app:ExpireProposals#uuid.NewUUID1"; "app:FinalizeProposals#uuid.NewUUID1";
  "app:newContext#os.Getenv1";
  "data/evidence:EvidenceStore.GenerateRequestID#uuid.NewUUID1";
  "data/keys:buildFileName#time.Now1";
  "event:BroadcastGovExpireVotesTx#uuid.NewUUID1"; "event:BroadcastGovFinalizeVotesTx#uuid.NewUUID1";
  "event:BroadcastReportFinalityETHTx#uuid.NewUUID1";
  "event:JobBTCCheckFinality.DoMyJob#time.Now1"; "event:JobBTCCheckFinality.DoMyJob#time.Now2";
  "event:JobBus.Start#go1"; "event:JobBus.Start#select1"; "event:NewBTCCheckFinalityJob#time.Now1";
  "external_apps/bid/bid_block_func:PopExpireBidTxFromQueue#uuid.NewUUID1";
  "storage:dbDir#os.Getenv1"
]%string.

Theorem C01_fact_ambient : unlisted ambient_allowed ambient_sites = [].
Proof. vm_compute. reflexivity. Qed.

(* ... and WHO CALLS a function that contains such a site is audited as well: a state-machine function that
   starts calling one of them (a store that fills in a missing request id with GenerateRequestID, a handler
   that stamps a record with a job-creation helper) makes the value it gets part of consensus state.  The
   callers below are start-up, the block ender's two internal-transaction loops (the UUID is the memo of a
   transaction that is never stored) and job-bus jobs. *)
Definition ambient_callers_allowed : list (string * string) := [
  ("app:App.Prepare", "app:App.Start");
  ("app:ExpireProposals", "app:App.blockEnder"); ("app:FinalizeProposals", "app:App.blockEnder");
  ("app:newContext", "app:NewApp");
  ("data/keys:buildFileName", "data/keys:KeyStore.SaveKeyData");
  ("event:BroadcastGovExpireVotesTx", "event:JobGovCheckVotes.DoMyJob");
  ("event:BroadcastGovFinalizeVotesTx", "event:JobGovFinalizeProposal.DoMyJob");
  ("event:BroadcastReportFinalityETHTx", "event:JobETHBroadcast.DoMyJob");
  ("event:BroadcastReportFinalityETHTx", "event:JobETHCheckFinality.DoMyJob");
  ("event:BroadcastReportFinalityETHTx", "event:JobETHSignRedeem.DoMyJob");
  ("event:BroadcastReportFinalityETHTx", "event:JobETHVerifyRedeem.DoMyJob");
  ("event:NewBTCCheckFinalityJob", "event:ReportBroadcastSuccess")
]%string.

Definition unlisted_pairs (allowed l : list (string * string)) : list (string * string) :=
  filter (fun '(a, b) => negb (existsb (fun '(a', b') => String.eqb a a' && String.eqb b b') allowed)) l.

Theorem C01_fact_ambient_callers : unlisted_pairs ambient_callers_allowed ambient_callers = [].
Proof. vm_compute. reflexivity. Qed.

Example C01_facts_nonvacuous :
  (20 <=? Z.of_nat (List.length map_range_sites)) = true /\
  (10 <=? Z.of_nat (List.length ambient_sites)) = true /\
  bad_sites [] false map_range_sites <> [].
Proof. repeat split; discriminate. Qed.

(* (4) node identity and node-local data: two nodes fed the same consensus inputs persist the same
   tracker state whatever their witness flag, their own votes and the content of their job stores
   (model: theories/Globals.v; tie: the facts below, regenerated from the source on every run) *)
Theorem C01_tracker_state_independent_of_the_node : forall h1 h2 t,
  same_inputs h1 h2 -> writes_ok h1 = true -> writes_ok h2 = true ->
  run false t h1 = run false t h2.
Proof. exact run_local_independent. Qed.
Print Assumptions C01_tracker_state_independent_of_the_node.

Theorem C01_fact_node_local_inputs :
  unknown_globals written_globals = [] /\ unaudited_reads local_reads = [] /\ state_then_lookup_error = [].
Proof. vm_compute. repeat split; reflexivity. Qed.
Print Assumptions C01_fact_node_local_inputs.

(* The replay record is node-local (known finding C01.replay_record_is_node_local).
   Whether a delivered transaction was executed before is asked of Tendermint's transaction index
   (theories/Replay.v: txDeliverer looks the hash up first and answers from the index without executing).
   The index is node configuration ("kv" or "null") and is not part of the state the blocks determine: two
   nodes with the same application state, fed the same block, compute different states when the block contains
   bytes that an earlier block already contained.  Closed witness; exhibited on the real application by the
   replica "tx-index-off" on histories with re-included transactions. *)
Theorem C01_replay_record_node_local_refuted : exists (b : Replay.bytes),
  let decode := fun x : Replay.bytes => Some x in
  let adm := fun (_ : Replay.bytes) (_ : Z) => true in
  let app := fun (_ : Replay.bytes) (s : Z) => (s + 1)%Z in
  let kv_node := {| Replay.idx := [b]; Replay.st := 1%Z; Replay.pending := [] |} in
  let null_node := {| Replay.idx := []; Replay.st := 1%Z; Replay.pending := [] |} in
  Replay.st Z kv_node = Replay.st Z null_node /\
  Replay.st Z (snd (Replay.deliver Replay.bytes decode Z adm app kv_node b)) <>
  Replay.st Z (snd (Replay.deliver Replay.bytes decode Z adm app null_node b)).
Proof. exists [1%Z]. cbn. split; [reflexivity|discriminate]. Qed.
