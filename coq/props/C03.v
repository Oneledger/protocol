(* C03 — no unauthorised debit.
   Only property theorems here; proofs are in proofs/LedgerProofs.v and proofs/LedgerTxProofs.v. *)
From stdpp Require Import gmap list.
From Coq Require Import ZArith NArith String.
From OL Require Import theories.Ledger theories.LedgerTx proofs.LedgerProofs proofs.LedgerTxProofs gen.Facts_Signers.
Local Open Scope Z_scope.

(* the holdings (balances in currency c, locked / unlocking / withdrawable stake, delegated and undelegating
   amounts, reward claims) of account a decrease across a transaction only if some operation takes from a *)
Theorem C03_tx_debit_needs_source : forall a c l ops,
  holdings a c (run_tx l ops) < holdings a c l -> In a (debited ops).
Proof. exact run_tx_debit_needs_source. Qed.
Print Assumptions C03_tx_debit_needs_source.

Theorem C03_block_debit_needs_source : forall a c txs l,
  holdings a c (run_block l txs) < holdings a c l -> exists ops, In ops txs /\ In a (debited ops).
Proof. exact run_block_debit_needs_source. Qed.
Print Assumptions C03_block_debit_needs_source.

Theorem C03_history_debit_needs_source : forall a c bs l,
  holdings a c (run_history l bs) < holdings a c l ->
  exists b ops, In b bs /\ In ops b /\ In a (debited ops).
Proof. exact run_history_debit_needs_source. Qed.
Print Assumptions C03_history_debit_needs_source.

(* movements between an account's own records never change anybody's holdings *)
Theorem C03_own_moves_neutral : forall a c l ops,
  forallb own_move ops = true -> holdings a c (run_tx l ops) = holdings a c l.
Proof. exact run_tx_own_moves. Qed.
Print Assumptions C03_own_moves_neutral.


(* Per transaction kind: the owners an effect function takes from.
   takes_only_from ops who := every owner in (debited ops) is in who.  [who] is the payload field(s) named in
   LedgerTx.model_debit_fields (+ the delegation pool for NETWORK_UNDELEGATE, a protocol account) and the fee payer,
   which is the FIRST signer (LedgerTx.model_fee_payer_field); the obligation C03_signers_facts below checks on the
   regenerated coq/gen/Facts_Signers.v that these fields are returned by the Go Signers() of that message type. *)
Theorem C03_debit_needs_authority_send : forall known cur from to v payer fp fee ops, 0 <= fee -> effect_send known cur from to v = Some ops ->
  takes_only_from (ops ++ fee_ops payer fp fee) [from; payer].
Proof. intros. eapply honest_takes_only_from, send_honest; eassumption. Qed.
Print Assumptions C03_debit_needs_authority_send.
Theorem C03_debit_needs_authority_sendpool : forall known cur from pool v payer fp fee ops, 0 <= fee -> effect_sendpool known cur from pool v = Some ops ->
  takes_only_from (ops ++ fee_ops payer fp fee) [from; payer].
Proof. intros. eapply honest_takes_only_from, sendpool_honest; eassumption. Qed.
Print Assumptions C03_debit_needs_authority_sendpool.
Theorem C03_debit_needs_authority_stake : forall known cur staker val v payer fp fee ops, 0 <= fee -> effect_stake known cur staker val v = Some ops ->
  takes_only_from (ops ++ fee_ops payer fp fee) [staker; payer].
Proof. intros. eapply honest_takes_only_from, stake_honest; eassumption. Qed.
Print Assumptions C03_debit_needs_authority_stake.
Theorem C03_debit_needs_authority_unstake : forall known cur staker val v h payer fp fee ops, 0 <= fee -> effect_unstake known cur staker val v h = Some ops ->
  takes_only_from (ops ++ fee_ops payer fp fee) [staker; payer].
Proof. intros. eapply honest_takes_only_from, unstake_honest; eassumption. Qed.
Print Assumptions C03_debit_needs_authority_unstake.
Theorem C03_debit_needs_authority_withdraw : forall known cur staker v payer fp fee ops, 0 <= fee -> effect_withdraw known cur staker v = Some ops ->
  takes_only_from (ops ++ fee_ops payer fp fee) [staker; payer].
Proof. intros. eapply honest_takes_only_from, withdraw_honest; eassumption. Qed.
Print Assumptions C03_debit_needs_authority_withdraw.
Theorem C03_debit_needs_authority_delegate : forall known cur u pool v payer fp fee ops, 0 <= fee -> effect_delegate known cur u pool v = Some ops ->
  takes_only_from (ops ++ fee_ops payer fp fee) [u; payer].
Proof. intros. eapply honest_takes_only_from, delegate_honest; eassumption. Qed.
Print Assumptions C03_debit_needs_authority_delegate.
Theorem C03_debit_needs_authority_undelegate : forall known cur u pool v h payer fp fee ops, 0 <= fee -> effect_undelegate known cur u pool v h = Some ops ->
  takes_only_from (ops ++ fee_ops payer fp fee) [u; pool; payer].
Proof. intros. eapply honest_takes_only_from, undelegate_honest; eassumption. Qed.
Print Assumptions C03_debit_needs_authority_undelegate.
Theorem C03_debit_needs_authority_rewards_withdraw : forall known cur u v h payer fp fee ops, 0 <= fee -> effect_rewards_withdraw known cur u v h = Some ops ->
  takes_only_from (ops ++ fee_ops payer fp fee) [u; payer].
Proof. intros. eapply honest_takes_only_from, rewards_withdraw_honest; eassumption. Qed.
Print Assumptions C03_debit_needs_authority_rewards_withdraw.
Theorem C03_debit_needs_authority_reinvest : forall known cur u pool v payer fp fee ops, 0 <= fee -> effect_reinvest known cur u pool v = Some ops ->
  takes_only_from (ops ++ fee_ops payer fp fee) [u; payer].
Proof. intros. eapply honest_takes_only_from, reinvest_honest; eassumption. Qed.
Print Assumptions C03_debit_needs_authority_reinvest.
Theorem C03_debit_needs_authority_proposal_create : forall known cur p prop v init goal payer fp fee ops, 0 <= fee -> 0 <= init -> effect_proposal_create known cur p prop v init goal = Some ops ->
  takes_only_from (ops ++ fee_ops payer fp fee) [p; payer].
Proof. intros. eapply honest_takes_only_from, proposal_create_honest; eassumption. Qed.
Print Assumptions C03_debit_needs_authority_proposal_create.
Theorem C03_debit_needs_authority_proposal_fund : forall known cur f prop v payer fp fee ops, 0 <= fee -> effect_proposal_fund known cur f prop v = Some ops ->
  takes_only_from (ops ++ fee_ops payer fp fee) [f; payer].
Proof. intros. eapply honest_takes_only_from, proposal_fund_honest; eassumption. Qed.
Print Assumptions C03_debit_needs_authority_proposal_fund.
Theorem C03_debit_needs_authority_proposal_withdraw : forall known cur f b prop v payer fp fee ops, 0 <= fee -> effect_proposal_withdraw known cur f b prop v = Some ops ->
  takes_only_from (ops ++ fee_ops payer fp fee) [f; payer].
Proof. intros. eapply honest_takes_only_from, proposal_withdraw_honest; eassumption. Qed.
Print Assumptions C03_debit_needs_authority_proposal_withdraw.
Theorem C03_debit_needs_authority_domain_create : forall known cur o fp v base payer fee ops, 0 <= fee -> 0 <= base -> effect_domain_create known cur o fp v base = Some ops ->
  takes_only_from (ops ++ fee_ops payer fp fee) [o; payer].
Proof. intros. eapply honest_takes_only_from, domain_create_honest; eassumption. Qed.
Print Assumptions C03_debit_needs_authority_domain_create.
Theorem C03_debit_needs_authority_domain_renew : forall known cur o fp v pb payer fee ops, 0 <= fee -> 0 <= pb -> effect_domain_renew known cur o fp v pb = Some ops ->
  takes_only_from (ops ++ fee_ops payer fp fee) [o; payer].
Proof. intros. eapply honest_takes_only_from, domain_renew_honest; eassumption. Qed.
Print Assumptions C03_debit_needs_authority_domain_renew.
Theorem C03_debit_needs_authority_domain_purchase : forall known cur buyer fp offer on_sale sale seller base payer fee ops, 0 <= fee -> 0 <= sale -> 0 <= base -> effect_domain_purchase known cur buyer fp offer on_sale sale seller base = Some ops ->
  takes_only_from (ops ++ fee_ops payer fp fee) [buyer; payer].
Proof. intros. eapply honest_takes_only_from, domain_purchase_honest; eassumption. Qed.
Print Assumptions C03_debit_needs_authority_domain_purchase.
Theorem C03_debit_needs_authority_domain_send : forall known cur from benef v payer fp fee ops, 0 <= fee -> effect_domain_send known cur from benef v = Some ops ->
  takes_only_from (ops ++ fee_ops payer fp fee) [from; payer].
Proof. intros. eapply honest_takes_only_from, domain_send_honest; eassumption. Qed.
Print Assumptions C03_debit_needs_authority_domain_send.

(* WITHDRAW_REWARD: takes from the reward pool (a protocol account) and the fee payer only (amounts >= 0 since 45cfd0d / ed95e98) *)
Theorem C03_debit_needs_authority_withdraw_reward : forall known cur signer rpool v payer fp fee ops, 0 <= fee ->
  effect_withdraw_reward known cur signer rpool v = Some ops -> takes_only_from (ops ++ fee_ops payer fp fee) [rpool; payer].
Proof. intros. eapply honest_takes_only_from, withdraw_reward_honest; eassumption. Qed.
Print Assumptions C03_debit_needs_authority_withdraw_reward.

(* PROPOSAL_WITHDRAW_FUNDS is FULL since /repo 19a3caa.  The former refutation witness (finding C03.withdraw_funds_negative,
   fixed): funder 1 signs, beneficiary 2 is named, amount -5 - rejected now, the beneficiary keeps its holdings *)
Definition l_w : gmap key Z := ladd (ladd ∅ (bal 1 0) 1000) (bal 2 0) 30.
Example C03_former_witness_proposal_withdraw_rejected :
  effect_proposal_withdraw true 0 1 2 7 (-5) = None /\
  holdings 2 0 (run_tx l_w (default [] (tx_ops (effect_proposal_withdraw true 0 1 2 7 (-5)) 1 9 1))) = holdings 2 0 l_w /\
  debited (default [] (tx_ops (effect_proposal_withdraw true 0 1 2 7 5) 1 9 1)) = [1%N; 1%N].
Proof. vm_compute. auto. Qed.

(* bid app: the bidder's holdings (balance + escrow) are unchanged by locking / unlocking his bid - also by the PUBLIC, unguarded
   BID_EXPIRE that anybody may send - and decrease only by the owner's accept of the bid he signed or by his own accept of a counter offer *)
Theorem C03_bid_unlock_neutral : forall (l : gmap key Z) (bidder conv payer fp : N) (fee : Z), 0 <= fee -> nonneg l ->
  no_creation (unlock_ops l bidder conv ++ fee_ops payer fp fee) /\ credits_ok (unlock_ops l bidder conv ++ fee_ops payer fp fee) /\
  takes_only_from (unlock_ops l bidder conv ++ fee_ops payer fp fee) [bidder; payer] /\
  forall a c, a <> payer -> holdings a c (run_tx l (unlock_ops l bidder conv)) = holdings a c l.
Proof.
  intros l bidder conv payer fp fee F NN. destruct (escrow_move_honest payer fp fee F l bidder conv bidder NN) as (A & B & C).
  auto using unlock_neutral.
Qed.
Print Assumptions C03_bid_unlock_neutral.
Theorem C03_bid_create_authority : forall known cur bidder conv v hc c payer fp fee ops, 0 <= fee ->
  effect_bid_create known cur bidder conv v hc c = Some ops ->
  no_creation (ops ++ fee_ops payer fp fee) /\ credits_ok (ops ++ fee_ops payer fp fee) /\ takes_only_from (ops ++ fee_ops payer fp fee) [bidder; payer].
Proof. intros. eapply bid_create_honest; eassumption. Qed.
Print Assumptions C03_bid_create_authority.
Theorem C03_bid_owner_accept_takes_the_escrow_only : forall (l : gmap key Z) (bidder owner conv payer fp : N) (fee : Z) ops, 0 <= fee -> nonneg l ->
  effect_bid_owner_accept l bidder owner conv = Some ops ->
  no_creation (ops ++ fee_ops payer fp fee) /\ credits_ok (ops ++ fee_ops payer fp fee) /\ takes_only_from (ops ++ fee_ops payer fp fee) [bidder; payer].
Proof. intros * F NN [= <-]. exact (escrow_move_honest payer fp fee F l bidder conv owner NN). Qed.
Print Assumptions C03_bid_owner_accept_takes_the_escrow_only.

(* the holdings of an account outside [who] do not decrease *)
Theorem C03_others_keep_holdings : forall a c l ops who, takes_only_from ops who -> ~ In a who -> holdings a c l <= holdings a c (run_tx l ops).
Proof. exact takes_only_holdings. Qed.
Print Assumptions C03_others_keep_holdings.

(* the guilty-verdict hook takes from the guilty validator's STAKE ADDRESS only (the exception named in the property) *)
Theorem C03_penalty_debits_the_guilty_stake_account : forall (l : gmap key Z) (stake val bounty : N) (pct dec bpct bdec : Z),
  0 <= val_total l val -> 0 <= pct -> 0 < dec -> 0 <= bpct <= bdec -> 0 < bdec ->
  no_creation (penalty_ops l stake val bounty pct dec bpct bdec) /\ credits_ok (penalty_ops l stake val bounty pct dec bpct bdec) /\
  takes_only_from (penalty_ops l stake val bounty pct dec bpct bdec) [stake].
Proof. exact penalty_honest. Qed.
Print Assumptions C03_penalty_debits_the_guilty_stake_account.

(* the three maturity hooks never change anybody's holdings *)
Theorem C03_maturity_neutral_undelegation : forall a c (l : gmap key Z) h,
  holdings a c (run_tx l (maturity_ops l B_UNDELEG h to_balance)) = holdings a c l.
Proof. intros. apply maturity_neutral; [reflexivity|repeat split]. Qed.
Print Assumptions C03_maturity_neutral_undelegation.
Theorem C03_maturity_neutral_reward_withdrawal : forall a c (l : gmap key Z) h,
  holdings a c (run_tx l (maturity_ops l B_REWPEND h to_balance)) = holdings a c l.
Proof. intros. apply maturity_neutral; [reflexivity|repeat split]. Qed.
Print Assumptions C03_maturity_neutral_reward_withdrawal.
Theorem C03_maturity_neutral_unstake : forall a c (l : gmap key Z) h,
  holdings a c (run_tx l (maturity_ops l B_UNSTAKE h to_withdrawable)) = holdings a c l.
Proof. intros. apply maturity_neutral; [reflexivity|repeat split]. Qed.
Print Assumptions C03_maturity_neutral_unstake.
Example C03_ex_maturity : let l := ladd (ladd ∅ (mk 1 B_UNDELEG 0 7) 40) (bal 1 0) 2 in
  maturity_ops l B_UNDELEG 7 to_balance = [Move (mk 1 B_UNDELEG 0 7) (bal 1 0) 40] /\
  lget (run_tx l (maturity_ops l B_UNDELEG 7 to_balance)) (bal 1 0) = 42.
Proof. vm_compute. auto. Qed.

(* every payload field an effect function takes from is returned by Signers() of that message type, and the fee payer
   field is the FIRST signer - on the table regenerated from /repo on every run *)
Theorem C03_signers_facts : signers_facts_ok signers_table = true.
Proof. vm_compute. reflexivity. Qed.

Definition kA : key := mk 1 B_BAL 0 0.
Definition kB : key := mk 2 B_BAL 0 0.
Definition l_ex : gmap key Z := ladd (ladd ∅ kA 100) kB 5.
Example C03_ex_debit : holdings 1 0 (run_tx l_ex [Move kA kB 30]) = 70 /\ debited [Move kA kB 30] = [1%N].
Proof. vm_compute. auto. Qed.
(* a negative amount makes the TARGET the debited party: the authority theorems therefore need amount >= 0 *)
Example C03_negative_move_debits_target_refuted :
  holdings 2 0 (run_tx l_ex [Move kA kB (-4)]) = 1 /\ debited [Move kA kB (-4)] = [2%N].
Proof. vm_compute. auto. Qed.
