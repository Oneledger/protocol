(* C19 — allegations: verdicts follow votes, frozen stays frozen, penalties bounded.
   The model (theories/Allegation.v) takes as operation inputs what other properties own: the
   validator queue one version back, the missed-votes candidates, the outcome of the non-allegation
   part of the staking handlers; every theorem quantifies over ALL such inputs. *)
From stdpp Require Import gmap list.
From Coq Require Import ZArith Bool Lia.
From OL Require Import theories.Allegation theories.AllegationCheck proofs.AllegationProofs.
Local Open Scope Z_scope.

(* (1) verdicts follow votes.  For every history (any genesis stakes, any operations) and every block
   end in it: each verdict event of that block end certifies, against the log of everything that
   happened BEFORE that block end, that
   - the required count is ceil(active * votePct / voteDec) for the active count of this EndBlock,
   - GUILTY: yes/required > allegPct/allegDec; INNOCENT: not that, and no/required > 1 - allegPct/allegDec
     (exact integer comparisons, see C19_verdict_exact),
   - there are [yes] pairwise distinct addresses with an accepted YES vote event on this request and
     [no] pairwise distinct addresses with an accepted NO vote event. *)
Theorem C19_verdict_follows_votes : forall c stk ops1 q ord s1 log1 s2 ev,
  run c (init_with stk) ops1 = (s1, log1) -> step c s1 (OEnd q ord) = (s2, ev) ->
  Forall (verdict_certified c log1) ev.
Proof.
  intros c stk ops1 q ord s1 log1 s2 ev H1 H2. pose proof (reachable_votes_inv c stk ops1) as Inv.
  rewrite H1 in Inv. apply (end_block_certified c s1 q ord) in Inv. simpl in H2. rewrite H2 in Inv. exact Inv.
Qed.
Print Assumptions C19_verdict_follows_votes.

(* ... and every vote event in a history was produced by a vote transaction whose sender was, in the
   state in which it was executed, an active validator and not frozen *)
Theorem C19_votes_from_active_validators : forall c ops s0 s' log id a ch,
  run c s0 ops = (s', log) -> EvVote id a ch ∈ log ->
  exists ops1 ops2 s1 l1, ops = ops1 ++ OVote id a ch :: ops2 /\ run c s0 ops1 = (s1, l1) /\
    is_active s1 a = true /\ is_frozen s1 a = false.
Proof.
  intros c ops s0 s' log id a ch H Hin.
  destruct (alleg_run_event c ops s0 (EvVote id a ch)) as (ops1 & o & ops2 & -> & He); [rewrite H; exact Hin|].
  apply step_vote_event in He as (-> & A & F).
  exists ops1, ops2, (run c s0 ops1).1, (run c s0 ops1).2. auto using surjective_pairing.
Qed.
Print Assumptions C19_votes_from_active_validators.

(* each validator counts at most once per request: in every reachable state the voter list of every
   request is duplicate-free *)
Theorem C19_one_vote_per_validator : forall c stk ops s log id r,
  run c (init_with stk) ops = (s, log) -> reqs s !! id = Some r -> NoDup (r_votes r).*1.
Proof.
  intros c stk ops s log id r H Hr. pose proof (reachable_votes_inv c stk ops) as Inv.
  rewrite H in Inv. apply (Inv id r Hr).
Qed.
Print Assumptions C19_one_vote_per_validator.

(* the shares are the exact rational ones (full statement since /repo d95b5d2, which replaced the
   float64 quotients by integer cross-multiplication): required is the ceiling of
   active*votePct/voteDec, GUILTY iff yes/required > allegPct/allegDec, INNOCENT iff
   no/required > 1 - allegPct/allegDec *)
Theorem C19_verdict_exact : forall c active yes no req, 0 < voteDec c ->
  (required_x c active - 1) * voteDec c < active * votePct c <= required_x c active * voteDec c /\
  (guilty_x c yes req = true <-> yes * allegDec c > allegPct c * req) /\
  (innocent_x c no req = true <-> no * allegDec c > (allegDec c - allegPct c) * req).
Proof.
  intros c active yes no req Hd. unfold required_x, guilty_x, innocent_x.
  pose proof (Z.mul_div_le (- (active * votePct c)) (voteDec c)).
  pose proof (Z.mul_succ_div_gt (- (active * votePct c)) (voteDec c)). lia.
Qed.
Print Assumptions C19_verdict_exact.

Definition cfg90 : Cfg := mkCfg 100 100 90 100 30 100 50 100 1 4 1000 16.
Definition q10 : list (Z * Z) := map (fun i => (i, 3000000)) [1;2;3;4;5;6;7;8;9;10].
(* the former witness of C19.float_tally_mismatch (fixed by d95b5d2), now an example of the repaired
   behaviour: 10 active validators, all required, share 90%: one NO vote (no/required = 1/10, not
   > 1 - 9/10) decides nothing, the request stays open with its vote; a second NO vote closes it *)
Example C19_boundary_share_is_not_crossed :
  let ops := [OBegin 2 30 []; OEnd q10 []; OBegin 3 45 []; OAllege 0 1 10 3; OVote 0 2 NO; OEnd q10 []] in
  let r := run cfg90 (init_with []) ops in
  cfg_ok cfg90 = true /\
  r.2 = [EvTx true; EvOpened 0 1 10; EvTx true; EvVote 0 2 NO] /\
  (r_votes <$> reqs r.1 !! 0) = Some [(2, NO)] /\
  (run cfg90 r.1 [OBegin 4 60 []; OVote 0 3 NO; OEnd q10 []]).2 = [EvTx true; EvVote 0 3 NO; EvVerdict 0 10 INNOCENT 0 2 10 10].
Proof. vm_compute. repeat split; reflexivity. Qed.

(* (2) guilty => frozen byzantine-fault record at this height/time; stake reduced by exactly the
   penalty (when the accused has a validator record and the penalty does not exceed the stake; other
   validators' stakes untouched); the bounty program receives bounty_of(penalty) *)
Theorem C19_guilty_xrozen_and_penalised : forall c q active req s dec ev id r s' dec' ev',
  process_req c q active req (s, dec, ev) id = (s', dec', ev') ->
  reqs s !! id = Some r -> guilty_x c (count_choice YES (r_votes r)) req = true ->
  susp s' !! r_mal r = Some {| l_status := BYZ; l_fh := height s; l_fat := now s; l_rh := 0; l_rat := None |} /\
  is_frozen s' (r_mal r) = true /\
  (forall b, b <> r_mal r -> stake s' !! b = stake s !! b) /\
  (inb (r_mal r) q.*1 = true ->
     let amt := default 0 (stake s !! r_mal r) in
     (penalty c amt <= amt -> stake s' !! r_mal r = Some (amt - penalty c amt) /\
                              bounty s' = bounty s + bounty_of c (penalty c amt)) /\
     (amt < penalty c amt -> stake s' = stake s /\ bounty s' = bounty s)).
Proof.
  intros c q active req s dec ev id r s' dec' ev' H Hr G.
  revert H. destruct (process_req_outcome c q active req s dec ev id) as [V|r0 Hr0 G' _|r0 Hr0 _ Q|r0 Hr0 _ Q];
    [destruct (V r Hr); congruence|rewrite Hr in Hr0; injection Hr0 as <-..]; [congruence|intros [= <- _ _]; rewrite Q..].
  - unfold is_frozen, convict. simpl. rewrite lookup_insert. repeat split; discriminate.
  - set (s1 := convict s (r_mal r)). unfold is_frozen. cbn [susp stake bounty set_reqs].
    rewrite (proj1 (proj2 (penalty_applied_frame c s1 (r_mal r)))). unfold s1 at 1 2, convict. simpl. rewrite lookup_insert.
    split; [reflexivity|]. split; [reflexivity|].
    destruct (penalty_applied_cases c s1 (r_mal r)) as [[P ->]|[P ->]]; simpl in *.
    + split; [intros b Hb; apply lookup_insert_ne; congruence|]. intros _. split; [|lia].
      intros _. split; [apply lookup_insert|reflexivity].
    + split; [reflexivity|]. intros _. split; [lia|auto].
Qed.
Print Assumptions C19_guilty_xrozen_and_penalised.

(* the penalty is the configured percentage of the stake, rounded half up ... *)
Theorem C19_penalty_is_percentage : forall c st, 0 < penDec c ->
  2 * penDec c * penalty c st <= 2 * st * penBase c + penDec c < 2 * penDec c * (penalty c st + 1).
Proof.
  intros c st Hd. unfold penalty.
  pose proof (Z.mul_div_le (2 * st * penBase c + penDec c) (2 * penDec c)).
  pose proof (Z.mul_succ_div_gt (2 * st * penBase c + penDec c) (2 * penDec c)). lia.
Qed.
Theorem C19_penalty_le_stake : forall c st, 0 < penDec c -> 0 <= penBase c <= penDec c -> 0 <= st ->
  penalty c st <= st.
Proof. intros c st Hd Hb Hs. pose proof (C19_penalty_is_percentage c st Hd). nia. Qed.
(* ... of which at most the penalty (in base units) goes to the bounty program *)
Theorem C19_bounty_le_penalty : forall c p, 0 <= p -> 0 < oltDec c -> 0 < bountyDec c ->
  0 <= bountyPct c <= bountyDec c -> 0 <= bounty_of c p <= p * oltDec c.
Proof.
  intros c p Hp Ho Hd Hb. unfold bounty_of. split; [apply Z.div_pos|apply Z.div_le_upper_bound]; nia.
Qed.
Print Assumptions C19_bounty_le_penalty.
(* the closed formula agrees with a bit-exact model of the big.Float computation (64-bit mantissa,
   round to nearest even after Mul, Quo and Add) on boundary samples inside the guard *)
Example C19_penalty_bigfloat_samples :
  forallb (fun x : Z * Z * Z =>
     let c := mkCfg 50 100 50 100 x.1.2 x.2 50 100 1 4 1000 16 in
     penalty_guard c x.1.1 && (penalty c x.1.1 =? penalty_bigfloat c x.1.1))
    [(2999001, 30, 100); (5, 30, 100); (5, 1, 2); (7, 1, 2); (3, 1, 6); (1, 1, 3); (2, 1, 3); (0, 30, 100);
     (3000000, 1, 3); (777777, 7, 9); (123457, 5, 1000); (2 ^ 40 + 1, 1, 2); (2 ^ 61 + 1, 3, 7); (2 ^ 61 - 1, 1, 2)] = true.
Proof. vm_compute. reflexivity. Qed.

(* (3) frozen validators are excluded from staking and from voting (and from being accused again:
   an accepted allegation has an accused that is not frozen, C19_open_only_by_active under (6)) *)
Theorem C19_frozen_staking_rejected : forall s kind v envok delta,
  is_frozen s v = true -> do_stake s kind v envok delta = (s, [EvTx false]).
Proof. intros s kind v envok delta H. unfold do_stake. rewrite H. reflexivity. Qed.
Theorem C19_frozen_cannot_vote : forall s id a ch,
  is_frozen s a = true -> do_vote s id a ch = (s, [EvTx false]).
Proof. intros s id a ch H. unfold do_vote. rewrite H. reflexivity. Qed.
Print Assumptions C19_frozen_staking_rejected.

(* (4) frozen stays frozen: a frozen byzantine-fault record stays one under EVERY operation other
   than a release of that validator (full statement since /repo 5d81591: the missed-votes scan
   skips validators that already have a freeze record), and hence along every history that holds
   no release of that validator *)
Theorem C19_frozen_stays_frozen : forall c s o s' ev a,
  byz_frozen_m s a = true -> step c s o = (s', ev) -> o <> ORelease a -> byz_frozen_m s' a = true.
Proof.
  intros c s o s' ev a B H Hne. replace s' with (step c s o).1 by (rewrite H; reflexivity). clear H.
  assert (K : forall s1, susp s1 !! a = susp s !! a -> byz_frozen_m s1 a = true).
  { intros s1 E. unfold byz_frozen_m in *. rewrite E. exact B. }
  destruct o as [h t low| | | | | |q ord]; [|apply K, tx_frame; auto..|apply end_block_byz, B].
  apply K, begin_block_spec, byz_frozen_is_frozen, B.
Qed.
Print Assumptions C19_frozen_stays_frozen.
Theorem C19_frozen_until_released : forall c ops s a, byz_frozen_m s a = true ->
  ~ In (ORelease a) ops -> byz_frozen_m (run c s ops).1 a = true.
Proof.
  intros c ops s a B Hn.
  refine (alleg_run_inv c (fun o => o <> ORelease a) (fun s' _ => byz_frozen_m s' a = true) _ ops s [] _ B).
  - intros s' _ o Ho B'. eapply C19_frozen_stays_frozen; [exact B'|apply surjective_pairing|exact Ho].
  - apply Forall_forall. intros o Ho ->. apply Hn, elem_of_list_In, Ho.
Qed.
Print Assumptions C19_frozen_until_released.

Definition cfg50 : Cfg := mkCfg 50 100 50 100 30 100 50 100 1 4 1000 16.
Definition q4 : list (Z * Z) := [(1, 3000000); (2, 2999000); (3, 2998000); (4, 2997000)].
Definition guilty_history : list Op :=
  [OBegin 2 30 []; OEnd q4 []; OBegin 6 90 []; OAllege 0 1 4 6; OVote 0 1 YES; OVote 0 2 YES; OEnd q4 []].
(* the former witness of C19.missed_scan_overwrites_byzantine (fixed by 5d81591), now an example of
   the repaired behaviour: validator 4 is found guilty at height 6; the missed-votes scan of
   BeginBlock 7 reaches it and leaves the record alone; releases 15 s and 30 s after the verdict are
   refused and the validator is still frozen *)
Example C19_missed_scan_keeps_byzantine_record :
  let s := (run cfg50 (init_with q4) guilty_history).1 in
  byz_frozen_m s 4 = true /\
  byz_frozen_m (step cfg50 s (OBegin 7 105 [4])).1 4 = true /\
  let r := run cfg50 (step cfg50 s (OBegin 7 105 [4])).1 [ORelease 4; OEnd q4 []; OBegin 8 120 [4]; ORelease 4] in
  byz_frozen_m r.1 4 = true /\ r.2 = [EvTx false; EvTx false].
Proof. vm_compute. repeat split; reflexivity. Qed.

(* (5) release: only a frozen record, a byzantine-fault record only strictly after
   FrozenAt + ValidatorReleaseTime days; and the validator is unfrozen exactly when the release
   happens strictly after the freeze time (a release in the freeze block leaves it frozen) *)
Theorem C19_release_only_after_time : forall c s a s' ev,
  do_release c s a = (s', ev) -> In (EvTx true) ev ->
  exists l, susp s !! a = Some l /\ lvh_frozen l = true /\
    (l_status l = MISSED \/ (l_status l = BYZ /\ now s > l_fat l + releaseDays c * DAY)) /\
    susp s' !! a = Some {| l_status := l_status l; l_fh := l_fh l; l_fat := l_fat l; l_rh := height s; l_rat := Some (now s) |}.
Proof.
  intros c s a s' ev H Hin. pose proof (step_tx c s (ORelease a) eq_refl) as X. simpl in X. rewrite H in X.
  inversion X as [| | |? l A B C|]; subst; [destruct Hin as [[=]|[]]|].
  exists l. simpl. rewrite lookup_insert. auto.
Qed.
Print Assumptions C19_release_only_after_time.
Theorem C19_release_unfreezes_iff_later : forall c s a s' ev l,
  do_release c s a = (s', ev) -> In (EvTx true) ev -> susp s !! a = Some l ->
  is_frozen s' a = negb (now s >? l_fat l).
Proof.
  intros c s a s' ev l H Hin Hl. destruct (C19_release_only_after_time _ _ _ _ _ H Hin) as (l' & E & _ & _ & E').
  rewrite Hl in E. injection E as <-. unfold is_frozen. rewrite E'. reflexivity.
Qed.

(* (6) accounts that are not active validators can neither open nor vote *)
Theorem C19_outsider_cannot_open : forall s id rep mal bh,
  is_active s rep = false -> do_allege s id rep mal bh = (s, [EvTx false]).
Proof. intros s id rep mal bh H. unfold do_allege. rewrite H, !orb_true_r. reflexivity. Qed.
Theorem C19_outsider_cannot_vote : forall s id a ch,
  is_active s a = false -> do_vote s id a ch = (s, [EvTx false]).
Proof. intros s id a ch H. unfold do_vote. rewrite H, orb_true_r. reflexivity. Qed.
Theorem C19_open_only_by_active : forall s id rep mal bh s' ev,
  do_allege s id rep mal bh = (s', ev) -> In (EvTx true) ev ->
  is_active s rep = true /\ is_frozen s mal = false /\ rep <> mal /\ bh <= height s /\
  reqs s !! id = None /\ request_exists s mal = false.
Proof.
  intros s id rep mal bh s' ev H Hin. unfold do_allege in H.
  destruct (_ || request_exists _ _) eqn:G; injection H as <- <-; [destruct Hin as [[=]|[]]|].
  repeat (apply orb_false_elim in G as [G ?]).
  rewrite bool_decide_eq_false, <- eq_None_not_Some in *. rewrite negb_false_iff in *. repeat split; auto; lia.
Qed.
Print Assumptions C19_open_only_by_active.

(* (7) a frozen validator drops out of the validator set: frozen at the start of a block (any
   height above 1; full statement since /repo 304e1e1) => not active after that block's EndBlock,
   whatever transactions the block holds *)
Theorem C19_frozen_drops_out : forall c s h t low txs q ord a,
  1 < h -> is_frozen s a = true -> a ∈ q.*1 -> forallb is_tx_op txs = true ->
  is_active (run c s (OBegin h t low :: txs ++ [OEnd q ord])).1 a = false.
Proof.
  intros c s h t low txs q ord a Hh Hf Hq Htx. rewrite alleg_run_cons, alleg_run_app, alleg_run_cons. simpl.
  destruct (begin_block_spec c s h t low) as (_ & Hh1 & _ & M). destruct (M a Hf) as [M1 _].
  destruct (txs_frame c txs (begin_block c s h t low).1 Htx) as [A B].
  apply end_excludes; [lia|congruence|exact Hq].
Qed.
Print Assumptions C19_frozen_drops_out.

Definition cfg_diff8 : Cfg := mkCfg 50 100 50 100 30 100 50 100 1 8 1000 16.
(* the former witness of C19.height_le_votes_diff (fixed by 304e1e1), now an example of the repaired
   behaviour: guilty at height 3 with BlockVotesDiff 8, inactive after EndBlock 4 *)
Example C19_frozen_drops_out_below_votes_diff :
  let s := (run cfg_diff8 (init_with q4)
    [OBegin 2 30 []; OEnd q4 []; OBegin 3 45 []; OAllege 0 1 4 3; OVote 0 1 YES; OVote 0 2 YES; OEnd q4 []]).1 in
  is_frozen s 4 = true /\ is_active s 4 = true /\
  is_active (run cfg_diff8 s [OBegin 4 60 []; OEnd q4 []]).1 4 = false.
Proof. vm_compute. repeat split; reflexivity. Qed.

(* (8) a decision is taken once: after an EndBlock that ran the tracker, a tracked request that is
   still open has votes that cross neither share — outside the trigger [guilty_without_record]
   (YES votes cross, but the accused has no validator record one version back) ... *)
Theorem C19_crossing_requests_are_closed_partial : forall c s q ord s' ev id r,
  end_block c s q ord = (s', ev) -> 1 < height s -> (elect c s q).2 <> 0 ->
  0 < voteDec c -> 0 < allegDec c ->
  id ∈ tracker s -> reqs s' !! id = Some r ->
  let req := required_x c (elect c s q).2 in
  guilty_without_record c q req r = false ->
  verdict_x c (count_choice YES (r_votes r)) (count_choice NO (r_votes r)) req = VOTING.
Proof.
  intros c s q ord s' ev id r H Hh Ha Hv Hd Hid Hr req G. revert H.
  destruct (end_block_outcome c s q ord) as [?|_ ?|s2 ids _ _ _ Hids]; [lia..|]. intros [= <- _].
  exact (process_fold_closed _ _ _ _ _ _ _ _ (Hids _ Hid) Hr G).
Qed.
Print Assumptions C19_crossing_requests_are_closed_partial.

Definition q3 : list (Z * Z) := [(1, 3000000); (2, 2999000); (3, 2998000)].
(* ... and is false inside it: validator 4 unstaked everything (its record is gone from the queue),
   two YES votes of three active validators cross 50% of ceil(3*50%) = 2; EndBlock 8 freezes it and
   leaves the request open with no verdict event; EndBlock 9 freezes it again from the same votes:
   the freeze height and time move every block, so FrozenAt + ValidatorReleaseTime is never reached,
   and staking/withdrawing stay rejected.  Known finding C19.guilty_without_validator_record,
   reproduced on the real code (findings/C19_guilty_without_validator_record.json). *)
Theorem C19_crossing_requests_are_closed_refuted_1 : exists c stk ops q id r,
  let s := (run c (init_with stk) ops).1 in
  let '(s', ev) := end_block c s q [] in
  1 < height s /\ (elect c s q).2 <> 0 /\ id ∈ tracker s /\ reqs s' !! id = Some r /\
  guilty_without_record c q (required_x c (elect c s q).2) r = true /\
  verdict_x c (count_choice YES (r_votes r)) (count_choice NO (r_votes r)) (required_x c (elect c s q).2) = GUILTY /\
  ev = [EvFrozen 4 BYZ 8] /\ (l_fh <$> susp s' !! 4) = Some 8 /\
  let r2 := run c s' [OBegin 9 86500 []; OStake 0 4 true 5000; OStake 2 4 true 0; OEnd q []] in
  r2.2 = [EvTx false; EvTx false; EvFrozen 4 BYZ 9] /\ (l_fat <$> susp r2.1 !! 4) = Some 86500 /\
  is_Some (reqs r2.1 !! id).
Proof.
  exists cfg50, q3,
    [OBegin 2 30 []; OEnd q3 []; OBegin 8 120 []; OAllege 0 1 4 8; OVote 0 1 YES; OVote 0 2 YES],
    q3, 0, (mkReq 1 4 8 VOTING [(1, YES); (2, YES)]).
  vm_compute. repeat split; try reflexivity; try discriminate; try lia.
  - apply elem_of_list_singleton. reflexivity.
  - eexists. reflexivity.
Qed.

(* (9) "active" in the model IS the election: the status EndBlock writes for a queue entry is exactly
   its election result (enough power, a free slot among TopValidatorCount when its turn comes, not
   frozen); at most TopValidatorCount stakers are counted active; a staker whose turn comes when all
   slots are taken is recorded inactive — so by (6) it can neither open nor vote *)
Theorem C19_status_is_election_result : forall c mal h vs cnt q,
  let upd := (minPower c <=? q.2) && (cnt <? topN c) && negb (inb q.1 mal) in
  active_in (elect_one c mal h (vs, cnt) q).1 q.1 = upd /\
  (elect_one c mal h (vs, cnt) q).2 = (if upd then cnt + 1 else cnt) /\
  (forall b, b <> q.1 -> (elect_one c mal h (vs, cnt) q).1 !! b = vs !! b).
Proof. exact elect_one_status. Qed.
Theorem C19_active_count_le_top : forall c s q, 0 <= topN c -> 0 <= (elect c s q).2 <= topN c.
Proof. intros c s q H. pose proof (elect_fold_le c (malicious s) (height s) q (vstat s) 0). unfold elect. lia. Qed.
Theorem C19_standby_inactive : forall c mal h vs cnt q,
  topN c <= cnt -> active_in (elect_one c mal h (vs, cnt) q).1 q.1 = false.
Proof.
  intros c mal h vs cnt q H. rewrite (proj1 (elect_one_status c mal h vs cnt q)).
  replace (cnt <? topN c) with false by lia. rewrite andb_false_r. reflexivity.
Qed.
Print Assumptions C19_active_count_le_top.

Definition cfg_top2 : Cfg := mkCfg 100 100 50 100 30 100 50 100 1 4 1000 2.
Definition q5 : list (Z * Z) := [(1, 3000000); (2, 2999000); (3, 2998000); (4, 2997000); (5, 2996000)].
(* five qualified stakers, two slots: only 1 and 2 are active; the standby stakers 3, 4, 5 are refused
   when they accuse and vote, so validator 2 cannot be convicted by them; the request opened by 1
   stays open with no votes *)
Example C19_standby_stakers_are_refused :
  let r := run cfg_top2 (init_with q5)
    [OBegin 2 30 []; OEnd q5 []; OBegin 3 45 []; OAllege 0 3 2 3; OAllege 1 1 2 3;
     OVote 1 3 YES; OVote 1 4 YES; OVote 1 5 YES; OEnd q5 []] in
  map (is_active r.1) [1; 2; 3; 4; 5] = [true; true; false; false; false] /\
  r.2 = [EvTx false; EvTx true; EvOpened 1 1 2; EvTx false; EvTx false; EvTx false] /\
  is_frozen r.1 2 = false /\ (r_votes <$> reqs r.1 !! 1) = Some [].
Proof. vm_compute. repeat split; reflexivity. Qed.

(* repeat offence: validator 4 is convicted at height 6, releases itself one day later, is elected
   again, and is convicted a second time at height 11: the second verdict writes a fresh frozen
   byzantine-fault record (the released one is replaced), its stake/unstake/withdraw and vote are
   refused again, and it drops out of the active set at the next EndBlock *)
Example C19_repeat_offender_is_frozen_again :
  let s1 := (run cfg50 (init_with q4) (guilty_history ++
     [OBegin 7 105 []; OEnd q4 []; OBegin 8 86506 []; ORelease 4; OEnd q4 []; OBegin 9 86521 []; OEnd q4 []])).1 in
  let r2 := run cfg50 s1 [OBegin 11 86551 []; OAllege 2 1 4 11; OVote 2 1 YES; OVote 2 2 YES; OEnd q4 [];
     OBegin 12 86566 []; OStake 0 4 true 500; OStake 1 4 true (-500); OStake 2 4 true 0; OVote 2 4 YES; OEnd q4 []] in
  is_frozen s1 4 = false /\ is_active s1 4 = true /\
  (l_fh <$> susp r2.1 !! 4) = Some 11 /\ byz_frozen_m r2.1 4 = true /\ is_active r2.1 4 = false /\
  filter (fun e => match e with EvTx _ | EvVerdict _ _ _ _ _ _ _ => true | _ => false end = true) r2.2 =
    [EvTx true; EvTx true; EvTx true; EvVerdict 2 4 GUILTY 2 0 2 4; EvTx false; EvTx false; EvTx false; EvTx false].
Proof. vm_compute. repeat split; reflexivity. Qed.

(* (10) strict reading of "votes of distinct CURRENTLY active validators": every verdict of an EndBlock
   is also reached on the votes of the validators that are active after that block's election —
   outside the trigger [stale_votes] (some voter of the request is no longer active at the tally).
   (1) above is the reading "active when they voted" and holds without a guard. *)
Theorem C19_verdict_on_currently_active_votes_partial : forall c s q ord s' ev e,
  end_block c s q ord = (s', ev) -> e ∈ ev ->
  match e with
  | EvVerdict id mal st yes no req active =>
      exists r, reqs s !! id = Some r /\
        (stale_votes (elect c s q).1 (r_votes r) = false ->
         (st = GUILTY -> guilty_x c (count_active_choice (elect c s q).1 YES (r_votes r)) req = true) /\
         (st = INNOCENT -> innocent_x c (count_active_choice (elect c s q).1 NO (r_votes r)) req = true))
  | _ => True
  end.
Proof.
  intros c s q ord s' ev e H Hin. destruct (end_block_sound c s q ord) as (_ & F & _). rewrite H in F.
  apply (proj1 (Forall_forall _ _) F) in Hin. destruct Hin as [| |id r st Hr Hv]; try exact I.
  exists r. split; [exact Hr|].
  intros Hs. rewrite !(count_active_all _ _ _ Hs).
  destruct Hv as [[-> G]|(-> & _ & N)]; split; intros E; try discriminate E; assumption.
Qed.
Print Assumptions C19_verdict_on_currently_active_votes_partial.

(* ... and is false inside it: validator 1 votes YES and then drops out of the active set (its power
   falls below the minimum); validator 2's YES vote gives 2 of ceil(3*50%) = 2 required: GUILTY,
   although the currently active voters alone give 1 of 2.  Known finding C19.stale_votes_counted,
   reproduced on the real code (findings/C19_stale_votes_counted.json). *)
Theorem C19_verdict_on_currently_active_votes_refuted_1 : exists c stk ops q id r,
  let s := (run c (init_with stk) ops).1 in
  reqs s !! id = Some r /\ stale_votes (elect c s q).1 (r_votes r) = true /\
  (end_block c s q []).2 = [EvFrozen 4 BYZ 9; EvPenalty 4 2997000 899100 (bounty_of c 899100); EvVerdict id 4 GUILTY 2 0 2 3] /\
  guilty_x c (count_active_choice (elect c s q).1 YES (r_votes r)) 2 = false.
Proof.
  exists cfg50, q4,
    [OBegin 2 30 []; OEnd q4 []; OBegin 6 90 []; OAllege 0 2 4 6; OVote 0 1 YES; OEnd q4 [];
     OBegin 8 120 []; OEnd [(2, 2999000); (3, 2998000); (4, 2997000); (1, 500)] [];
     OBegin 9 135 []; OVote 0 2 YES],
    [(2, 2999000); (3, 2998000); (4, 2997000); (1, 500)], 0, (mkReq 2 4 6 VOTING [(1, YES); (2, YES)]).
  vm_compute. repeat split; reflexivity.
Qed.

(* non-vacuity: the hypotheses of the theorems above are met by a concrete history in which a
   verdict is reached with votes of distinct active validators, the stake drops by the penalty and
   the bounty program is credited *)
Example C19_nonvacuous :
  cfg_ok cfg50 = true /\
  (run cfg50 (init_with q4) guilty_history).2 !! 5%nat = Some (EvVote 0 2 YES) /\
  EvVerdict 0 4 GUILTY 2 0 2 4 ∈ (run cfg50 (init_with q4) guilty_history).2 /\
  stake (run cfg50 (init_with q4) guilty_history).1 !! 4 = Some (2997000 - 899100) /\
  bounty (run cfg50 (init_with q4) guilty_history).1 = 899100 * 10 ^ 18 / 2 /\
  byz_frozen_m (run cfg50 (init_with q4) guilty_history).1 4 = true.
Proof.
  split; [vm_compute; reflexivity|]. split; [vm_compute; reflexivity|].
  split; [apply elem_of_list_In; vm_compute; repeat first [left; reflexivity | right]|]. vm_compute. repeat split; reflexivity.
Qed.
