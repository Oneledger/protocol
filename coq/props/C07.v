(* C07 — mempool checks are isolated from consensus execution.  Only property theorems here. *)
From stdpp Require Import gmap list.
From Coq Require Import ZArith String.
From OL Require Import theories.Store theories.Abci theories.Aiming proofs.AimingProofs
  gen.Facts_Aiming theories.Caches gen.Facts_Caches theories.Globals gen.Facts_Globals
  theories.Options proofs.OptionsProofs gen.Facts_Options.
Local Open Scope string_scope.

(* for every sequence of consensus hooks, every family of store-use programs, and every
   interleaving of CheckTx calls (any number, any programs, at any call boundary): if each bare
   use of a shared store in a hook is preceded in the same hook by a re-aim at the deliver state,
   the hook results and the deliver state are those of the run without the CheckTx calls *)
Theorem C07_checks_invisible : forall evs w1 w2, well_aimed evs = true -> dl w1 = dl w2 ->
  (run_events w1 evs).1 = (run_events w2 (strip_checks evs)).1 /\
  dl (run_events w1 evs).2 = dl (run_events w2 (strip_checks evs)).2.
Proof. exact checks_invisible. Qed.
Print Assumptions C07_checks_invisible.

(* the hypothesis is necessary: one bare use after a CheckTx reads the check state *)
Theorem C07_unaimed_use_is_visible : exists evs w,
  well_aimed evs = false /\
  (run_events w evs).1 <> (run_events w (strip_checks evs)).1.
Proof.
  exists [ECheck (PSet 1%N [1%N] (fun _ => Ret true));
          EHook [CUse "govern" false (PGet 1%N (fun r => Ret (bool_decide (r = None))))]],
         {| dl := init {| recent := 0; every := 0; cycles := 0 |};
            ck := init {| recent := 0; every := 0; cycles := 0 |}; ptr := fun _ => Deliver |}.
  vm_compute. split; [reflexivity|discriminate].
Qed.

(* tie to the source (regenerated on every run): in BeginBlock, DeliverTx, EndBlock and Commit
   of package app, every use of a shared store singleton is aimed at the deliver state at the
   use, or follows an unconditional re-aim of that store (or Context.Action(header, deliver))
   earlier in the same hook — except the audited sites below.

   AUDIT (part of the trusted base; see DESIGN.md C07):
   - blockBeginner/feePool      : SetupOpt(feeOpt) — sets an in-memory field, no state access.
   - blockBeginner/stateDB      : SetBlockHash — in-memory field of the EVM adapter.
   - txDeliverer/stateDB        : Prepare/Finality — in-memory tx hash / log bookkeeping.
   - blockEnder/ethTrackers, witnesses : passed to doEthTransitions, which re-aims the tracker
                                   store itself (ts = ts.WithState(deliver)); witnesses is read-only
                                   and its records only change at InitChain.
   - blockEnder/stateDB         : GetBloomEvent / Reset — in-memory.
   A trap for this audit: "reads only" does not justify a bare use.  blockBeginner used to read the fee
   option (govern.GetFeeOption) and to build the internal finalize/expire queue (AddInternalTX over
   proposalMaster) through whatever state the last ABCI call had left; what was read is installed as the
   fee option of the block / decides which proposals are finalised in it.  A CheckTx of a
   PROPOSAL_FINALIZE for a passed configuration proposal (anybody may send it) applies the update to the
   CHECK state, and the next BeginBlock then took the new minimal fee from there: a payment that the block
   without that CheckTx executes was refused (finding C07.beginblock_reads_check_state; repaired in /repo,
   8650931: both uses are re-aimed, so they are not entries of the list below). *)
Definition audited : list (string * string) :=
  [("blockBeginner", "feePool"); ("blockBeginner", "stateDB"); ("txDeliverer", "stateDB");
   ("blockEnder", "ethTrackers"); ("blockEnder", "witnesses"); ("blockEnder", "stateDB")].

Theorem C07_fact_aiming : unaimed_uses audited hook_uses = [].
Proof. vm_compute. reflexivity. Qed.

(* the fact is not vacuous: without the audit the generated table does contain bare uses, and
   the hooks are really there *)
Example C07_fact_nonvacuous :
  List.length (unaimed_uses [] hook_uses) <> 0%nat /\ List.length hook_uses = 5%nat /\
  forallb (fun '(h, us) => String.eqb h "commitor" || negb (Nat.eqb (List.length us) 0)) hook_uses = true.
Proof. vm_compute. repeat split; discriminate. Qed.

(* what a CheckTx could leave behind for the consensus calls besides the store singletons of the
   aiming table is in-memory state that outlives a request: a field of the long-lived application
   objects, a variable captured by an ABCI closure, or a package-level variable.  Every such place is
   listed from the source on every run and must be of an audited class (theories/Caches.v,
   theories/Globals.v); a new one — e.g. a decoded record memoised in a store object, a map of
   validation outcomes, a decode target kept between requests — is an open obligation. *)
Theorem C07_fact_no_unclassified_memory :
  unknown_fields cache_fields = [] /\ closure_vars = [] /\ unknown_globals written_globals = [].
Proof. vm_compute. repeat split; reflexivity. Qed.
Print Assumptions C07_fact_no_unclassified_memory.

(* The in-memory copies of governance options (theories/Options.v).
   The store objects shared by the mempool and the consensus connection hold copies of the options in
   memory; handlers read the copy (every Validate prices the fee with it).  For every history of ABCI calls
   about one option — block starts with or without a reload, finalisations, commits, restarts, and any
   number of mempool checks of finalize / creation transactions at any position: if no mempool-reachable
   run of an update function writes the copy, every consensus read returns the option as persisted in the
   deliver state, and the reads are those of the history without the mempool calls. *)
Theorem C07_option_reads_are_the_persisted_option : forall evs s, copy s = rec_d s -> disciplined evs = true ->
  orun s evs = srun s evs.
Proof. exact options_coherent. Qed.
Print Assumptions C07_option_reads_are_the_persisted_option.

Theorem C07_option_checks_invisible : forall evs s, disciplined evs = true ->
  snd (orun s evs) = snd (orun s (strip_ochecks evs)).
Proof. exact option_checks_invisible. Qed.
Print Assumptions C07_option_checks_invisible.

(* a copy that BeginBlock reloads is right again from that BeginBlock on *)
Theorem C07_option_reload_heals : forall post s, disciplined post = true ->
  snd (orun s (OBegin true :: post)) = snd (srun s (OBegin true :: post)).
Proof. intros post s. now apply coherent_after. Qed.

(* the discipline is necessary in both of its halves; the first witness is the defect that was in /repo
   (FinalizeProposal.ProcessCheck ran the update function in update mode: repaired, 58a24fe) *)
Theorem C07_option_update_mode_in_check_is_visible : exists evs s, copy s = rec_d s /\ disciplined evs = false /\
  snd (orun s evs) <> snd (orun s (strip_ochecks evs)).
Proof.
  exists [OBegin true; OCheck 8 true; ORead], {| com := 9; rec_d := 9; rec_c := 9; copy := 9 |}.
  repeat split; discriminate.
Qed.
Theorem C07_option_early_setter_is_visible : exists evs s, copy s = rec_d s /\ disciplined evs = false /\
  snd (orun s evs) <> snd (orun s (strip_ochecks evs)).
Proof.
  exists [OBegin true; OCheckValidate 0 true; ORead], {| com := 9; rec_d := 9; rec_c := 9; copy := 9 |}.
  repeat split; discriminate.
Qed.

(* a copy with no reader on a consensus path cannot show, whoever writes it (the ONS options copy) *)
Theorem C07_option_unread_copy_invisible : forall evs s, no_reads evs = true -> snd (orun s evs) = [].
Proof. exact option_unread_copy_invisible. Qed.

(* tie to the source (regenerated on every run).  The discipline holds in /repo because
   (1) the copies are used directly only inside methods of the object that holds them;
   (2) every caller of such a method is audited (theories/Options.v audited_call): setters are called at
       start-up, by BeginBlock (fee option) and by the governance update functions of action/govUpdate.go;
       getters by the Validate methods (fee option) and the listed block hooks — a handler that starts
       reading a copy (pricing a domain from DomainStore.GetOptions) is not in the table;
   (3) inside the update functions no setter precedes the validate-only return;
   (4) update mode is requested only by FinalizeProposal.ProcessDeliver: ProcessCheck and the creation
       of a proposal pass ValidateOnly. *)
Theorem C07_fact_option_discipline :
  foreign_uses option_field_uses = [] /\ unaudited_calls option_accessor_calls = [] /\
  early_writes option_accessor_calls = [] /\ unaudited_modes update_mode_calls = [].
Proof. vm_compute. repeat split; reflexivity. Qed.

Example C07_fact_option_discipline_nonvacuous :
  (20 <=? List.length option_field_uses)%nat = true /\ (100 <=? List.length option_accessor_calls)%nat = true /\
  List.length update_mode_calls = 4%nat /\
  (* the audit refuses: a handler that starts reading the ONS options copy, a setter before the
     validate-only return, update mode requested where only validation is allowed *)
  unaudited_calls [("data/ons.DomainStore.GetOptions", "action/ons.runCreate", false)] <> [] /\
  early_writes [("data/fees.Store.SetupOpt", "action.feeOptionminFeeDecimal", true)] <> [] /\
  unaudited_modes [("action/governance.runFinalizeProposal", "<function value>", "action.ValidateAndUpdate")] <> [].
Proof. vm_compute. repeat split; discriminate. Qed.
