(* C15 — cross-chain lock/redeem: threshold-gated, exactly-once mint and refund. *)
From stdpp Require Import gmap list.
From Coq Require Import ZArith.
From OL Require Import theories.Tracker theories.TrackerCheck proofs.TrackerProofs.
Local Open Scope Z_scope.

(* (1) A mint (the model credits wrapped tokens for a lock: ghost event [Minted n a z]) can only be
   the effect of a report-finality step on an ongoing lock tracker whose reporter is the RECORDED
   witness of the slot it names and had not voted; that vote takes the yes-count from below
   floor(2n/3)+1 to at least it; the amount is the value the oracle parses from the recorded
   external transaction; the beneficiary is the tracker's owner whatever the report's Locker field
   says; both the beneficiary and the supply counter get exactly that amount and
   the tracker becomes Released in the same step.  From ANY state (no reachability needed). *)
Theorem C15_mint_gated : forall E s o s' r n a z,
  step E s o = (s', r) -> log s' = Minted n a z :: log s ->
  exists l v idx k t,
    o = Report n l v idx true /\ r = Ok /\
    ongoing s !! n = Some t /\ t_type t = T_LOCK /\ a = t_owner t /\
    idx = Z.of_nat k /\ t_wit t !! k = Some v /\ voted t v = false /\
    let t' := set_votes t (<[k := 1]> (t_votes t)) in
    yes_votes t < threshold t /\ threshold t <= yes_votes t' /\
    x_lock (e_tx E (t_tx t)) = Some z /\
    ongoing s' !! n = Some (set_state t' S_RELEASED) /\
    passed s' = passed s /\ failed s' = failed s /\
    bal s' = credit (credit (bal s) a z) (e_supply E) z.
Proof. intros E s o s' r. exact (payout_gated E s o s' r true). Qed.
Print Assumptions C15_mint_gated.

(* (2) the same for the refund of a redeem: only when a recorded witness's no-vote crosses the
   threshold, in the redeemed amount, and to the tracker's owner (the account that was debited) *)
Theorem C15_refund_gated : forall E s o s' r n a z,
  step E s o = (s', r) -> log s' = Refunded n a z :: log s ->
  exists l v idx k t,
    o = Report n l v idx false /\ r = Ok /\
    ongoing s !! n = Some t /\ t_type t = T_REDEEM /\ a = t_owner t /\
    idx = Z.of_nat k /\ t_wit t !! k = Some v /\ voted t v = false /\
    let t' := set_votes t (<[k := 2]> (t_votes t)) in
    no_votes t < threshold t /\ threshold t <= no_votes t' /\
    x_redeem (e_tx E (t_tx t)) = Some z /\
    ongoing s' !! n = Some (set_state t' S_FAILED) /\
    passed s' = passed s /\ failed s' = failed s /\
    bal s' = credit (credit (bal s) a z) (e_supply E) z.
Proof. intros E s o s' r. exact (payout_gated E s o s' r false). Qed.
Print Assumptions C15_refund_gated.

(* (3) votes: a reporter that is not a recorded witness changes no slot; a recorded witness whose
   slot is filled is refused *)
Theorem C15_vote_non_witness : forall t a idx v t',
  a ∉ t_wit t -> add_vote t a idx v = AVOk t' -> t' = t.
Proof.
  intros t a idx v t' Hnin [->|(k & _ & Hk & _)]%add_vote_ok; [done|].
  destruct Hnin. by eapply elem_of_list_lookup_2.
Qed.
Theorem C15_vote_second : forall t a idx v k,
  NoDup (t_wit t) -> t_wit t !! k = Some a -> slot t k <> 0 -> 0 <= slot t k ->
  Z.of_nat (length (t_wit t)) <=? idx = false ->
  add_vote t a idx v = AVErr.
Proof.
  intros t a idx v k Hnd Hk Hs Hs0 Hlen. unfold add_vote, voted.
  rewrite Hlen, (index_of_nodup _ _ _ Hnd Hk). by destruct (Z.ltb_spec 0 (slot t k)); [|lia].
Qed.
Print Assumptions C15_vote_second.

(* the shape of any accepted vote: nothing changes, or the slot the reporter is the recorded
   witness of is set to the reported code (and the reporter had not voted) *)
Theorem C15_vote_shape : forall t a idx v t',
  add_vote t a idx v = AVOk t' ->
  t' = t \/
  exists k, idx = Z.of_nat k /\ t_wit t !! k = Some a /\ voted t a = false /\
            t' = set_votes t (<[k := vote_code v]> (t_votes t)).
Proof. exact add_vote_ok. Qed.
Theorem C15_vote_slot_was_empty : forall t a k,
  NoDup (t_wit t) -> t_wit t !! k = Some a -> voted t a = false -> slot t k <= 0.
Proof.
  intros t a k Hnd Hk. unfold voted. rewrite (index_of_nodup _ _ _ Hnd Hk). apply Z.ltb_ge.
Qed.

(* (4) exactly-once: over every history of operations from any senders in any order, starting
   from empty stores and any balances, no tracker name is minted twice *)
Theorem C15_mint_at_most_once : forall E ops b,
  NoDup (minted_names (log (run E (init b) ops))).
Proof. intros E ops b. apply mint_once_run. split; [by intros n ?%elem_of_nil|constructor]. Qed.
Print Assumptions C15_mint_at_most_once.

Theorem C15_refund_at_most_once : forall E ops b,
  NoDup (refunded_names (log (run E (init b) ops))).
Proof. intros E ops b. apply refund_once_run. split; [by intros n ?%elem_of_nil|constructor]. Qed.
Print Assumptions C15_refund_at_most_once.

(* (5) the same external transaction name never backs two trackers: in every reachable state a
   name is in at most one of the three stores *)
Theorem C15_unique_name : forall E ops b, stores_disjoint (run E (init b) ops).
Proof. intros E ops b. apply disjoint_run. split; by intros n [? ?]. Qed.
Print Assumptions C15_unique_name.

(* (5b) the same EXTERNAL transaction never backs two trackers, whatever bytes carry it.  A tracker
   appears in the ongoing store only by an accepted lock / redeem, under the name of the submitted
   bytes, and only if that name is neither ongoing nor passed (redeem: nor failed).  Under the
   oracle hypothesis [ext_canonical] (strict decoding: accepted byte strings of one external
   transaction are identical — what rlp.DecodeBytes gives; since /repo dec611a the redeem handlers
   decode strictly too; the seeded lenient decoder C15_6 and the former padded-redeem defect are
   exactly violations of it, found by the monitor checks 11/12 on the implementation), every
   accepted encoding of the external transaction of a newly created tracker has that tracker's
   name, and no live or completed tracker existed under it: with (4) and (5), one external
   transaction backs at most one live tracker and is minted at most once. *)
Theorem C15_tracker_created_by : forall E s o s' r n t',
  step E s o = (s', r) -> ongoing s !! n = None -> ongoing s' !! n = Some t' ->
  exists a x, (o = Lock a x \/ (o = Redeem a x /\ failed s !! n = None)) /\
              n = x_name (e_tx E x) /\ t_tx t' = x /\ t_owner t' = a /\ accepted E x /\ passed s !! n = None.
Proof.
  intros E s o s' r n t' Hstep Hn Hn'.
  destruct (ongoing_origin _ _ _ _ _ _ _ Hstep Hn') as [(t & ? & _)|[_ ?]]; [congruence|done].
Qed.
Theorem C15_one_tracker_per_external_tx : forall E s o s' r n t',
  ext_canonical E ->
  step E s o = (s', r) -> ongoing s !! n = None -> ongoing s' !! n = Some t' ->
  forall x0, accepted E x0 -> x_ext (e_tx E x0) = x_ext (e_tx E (t_tx t')) ->
    x_name (e_tx E x0) = n /\ ongoing s !! x_name (e_tx E x0) = None /\ passed s !! x_name (e_tx E x0) = None.
Proof.
  intros E s o s' r n t' Hcan Hstep Hn Hn' x0 Hacc Hext.
  destruct (C15_tracker_created_by _ _ _ _ _ _ _ Hstep Hn Hn') as (a & x & _ & -> & Htx & _ & Hax & Hp).
  rewrite Htx in Hext. by rewrite (Hcan x0 x Hacc Hax Hext).
Qed.
Print Assumptions C15_one_tracker_per_external_tx.

(* (6) "to the account that submitted the lock" — FULL statement (since /repo b01fdf0; it was refuted
   before: former finding C15.mint_to_report_locker).  For every state and every operation, lying
   Locker field or not: a mint credits the owner recorded in the ongoing lock tracker, by exactly
   the minted amount; runLock records the signer of the lock as that owner, under a name that was
   in neither the ongoing nor the passed store; and no step ever changes the recorded type, name,
   external transaction, witnesses or owner of a tracker that stays in the ongoing store. *)
Theorem C15_mint_to_submitter : forall E s o s' r n a z,
  step E s o = (s', r) -> log s' = Minted n a z :: log s ->
  exists t, ongoing s !! n = Some t /\ t_type t = T_LOCK /\ a = t_owner t /\
            balof (bal s') a = balof (bal s) a + z + (if decide (a = e_supply E) then z else 0).
Proof.
  intros E s o s' r n a z Hstep Hlog.
  destruct (payout_gated _ _ _ _ _ true _ _ _ Hstep Hlog)
    as (_ & _ & _ & _ & t & _ & _ & Ht & Hty & -> & _ & _ & _ & _ & _ & _ & _ & _ & _ & ->).
  exists t. repeat split; try done. rewrite !balof_credit. repeat case_decide; try lia; congruence.
Qed.
Print Assumptions C15_mint_to_submitter.

Theorem C15_lock_records_sender : forall E s a x s',
  do_lock E s a x = (s', Ok) ->
  ongoing s' !! x_name (e_tx E x) = Some (new_tracker T_LOCK a x (x_name (e_tx E x)) (e_wits E)) /\
  ongoing s !! x_name (e_tx E x) = None /\ passed s !! x_name (e_tx E x) = None.
Proof.
  intros E s a x s' H%(step_effect E s (Lock a x)). inversion H; subst; [done|]. simpl. by rewrite lookup_insert.
Qed.

Theorem C15_record_stable : forall E s o s' r n t t',
  step E s o = (s', r) -> ongoing s !! n = Some t -> ongoing s' !! n = Some t' -> same_record t t'.
Proof.
  intros E s o s' r n t t' Hstep Ht Ht'.
  destruct (ongoing_origin _ _ _ _ _ _ _ Hstep Ht') as [(t0 & ? & ?)|[? _]]; by simplify_eq.
Qed.
Print Assumptions C15_record_stable.

Definition E0 : env :=
  {| e_wits := [20; 21; 22; 23]%N; e_cap := 1000; e_supply := 99%N;
     e_tx := fun _ => {| x_name := 1%N; x_ext := 1%N; x_lock := Some 100; x_redeem := Some 30 |};
     e_key := fun a => negb (N.eqb a 99%N); e_len20 := fun a => negb (N.eqb a 99%N) |}.
(* the same with a supply address that is 20 bytes long *)
Definition E1 : env :=
  {| e_wits := e_wits E0; e_cap := e_cap E0; e_supply := e_supply E0; e_tx := e_tx E0;
     e_key := e_key E0; e_len20 := fun _ => true |}.
Definition two_honest : list op := [Lock 1%N 1%N; Report 1%N 1%N 20%N 0 true; Report 1%N 1%N 21%N 1 true].

(* the hypothesis is satisfiable (and is what the harness measures): E0 has a single name *)
Example C15_ext_canonical_nonvacuous : ext_canonical E0.
Proof. intros x x' _ _ _. reflexivity. Qed.


(* regression example (the input of the former finding C15.mint_to_report_locker): four recorded
   witnesses, threshold 3; two honest yes-votes; the third witness names account 2 as Locker and
   crosses the threshold: the 100 tokens go to account 1, which submitted the lock; account 2 gets
   nothing *)
Example C15_lying_locker_does_not_redirect :
  let s := run E0 (init ∅) two_honest in
  let o := Report 1%N 2%N 22%N 2 true in
  lying_locker s o = true /\ log (step E0 s o).1 = Minted 1%N 1%N 100 :: log s /\
  balof (bal (step E0 s o).1) 1%N = 100 /\ balof (bal (step E0 s o).1) 2%N = 0.
Proof. vm_compute. repeat split; reflexivity. Qed.

(* (7) redeem: debit and tracker creation are one successful step, and the name was in no store *)
Theorem C15_redeem_debits_first : forall E s a x s',
  do_redeem E s a x = (s', Ok) ->
  exists amt, x_redeem (e_tx E x) = Some amt /\
    let n := x_name (e_tx E x) in
    ongoing s !! n = None /\ passed s !! n = None /\ failed s !! n = None /\
    ongoing s' !! n = Some (new_tracker T_REDEEM a x n (e_wits E)) /\
    amt <= balof (bal s) a /\
    bal s' = credit (credit (bal s) a (- amt)) (e_supply E) (- amt) /\
    log s' = Debited n a amt :: log s.
Proof.
  intros E s a x s' H%(step_effect E s (Redeem a x)). inversion H as [| | |? ? amt| | | |]; subst; [done|].
  exists amt. simpl. by rewrite lookup_insert.
Qed.
Print Assumptions C15_redeem_debits_first.

Definition honest : list op := two_honest ++ [Report 1%N 1%N 22%N 2 true; EndBlock {| nl_witness := false; nl_addr := 0%N; nl_bjob := [] |} [1%N]].

(* (7b) ERC-20 locks (runERC20Lock; only its effect on the tracker stores is modelled).  FULL since
   /repo 81bf4e3 (the handler got runLock's existence rule; before, it had none: former finding
   C15.erc20_lock_no_existence_check, double mint and take-over of a pending lock): the handler
   keeps the one-name-one-tracker invariant from every state, and never touches a name that is
   ongoing or passed. *)
Theorem C15_erc_lock_unique : forall E okf s a x s' r,
  stores_disjoint s -> do_lock_erc E okf s a x = (s', r) -> stores_disjoint s'.
Proof.
  intros E okf s a x s' r Hd. unfold do_lock_erc. destruct (negb _); [by intros [= <- _]|].
  destruct (has (ongoing s) _); [by intros [= <- _]|]. destruct (has (passed s) _) eqn:Hp; intros [= <- _]; [done|].
  apply has_false in Hp. by apply disjoint_new.
Qed.
Print Assumptions C15_erc_lock_unique.
Theorem C15_erc_lock_refuses : forall E okf s a x,
  has (ongoing s) (x_name (e_tx E x)) || has (passed s) (x_name (e_tx E x)) = true ->
  do_lock_erc E okf s a x = (s, Fail).
Proof. intros E okf s a x H. unfold do_lock_erc. rewrite H. by destruct (negb (okf x)). Qed.

(* regression examples (the inputs of the former finding C15.erc20_lock_no_existence_check): a name
   that passed and was minted is refused; a pending tracker with two votes is not replaced *)
Example C15_erc_relock_of_passed_name_refused :
  let s := run E0 (init ∅) honest in
  erc_relock E0 s 1%N = true /\ minted_names (log s) = [1%N] /\
  (do_lock_erc E0 (fun _ => true) s 1%N 1%N).2 = Fail /\ has (ongoing (do_lock_erc E0 (fun _ => true) s 1%N 1%N).1) 1%N = false.
Proof. vm_compute. repeat split; reflexivity. Qed.
Example C15_erc_pending_lock_not_overwritten :
  let s := run E0 (init ∅) two_honest in
  (do_lock_erc E0 (fun _ => true) s 2%N 1%N).2 = Fail /\
  option_map t_owner (ongoing (do_lock_erc E0 (fun _ => true) s 2%N 1%N).1 !! 1%N) = Some 1%N /\
  option_map yes_votes (ongoing (do_lock_erc E0 (fun _ => true) s 2%N 1%N).1 !! 1%N) = Some 2.
Proof. vm_compute. repeat split; reflexivity. Qed.

(* (7c) since /repo d276709 DeliverTx runs the kind's Validate first ([valid], [vstep]): a report with
   a negative vote index (it made AddVote index out of range before) and any transaction naming
   a signer without key have no effect *)
Theorem C15_invalid_no_effect : forall E s o, valid E o = false -> vstep E s o = (s, Fail).
Proof. intros E s o H. unfold vstep. by rewrite H. Qed.
Example C15_negative_index_refused :
  let s := run E0 (init ∅) two_honest in vstep E0 s (Report 1%N 1%N 22%N (-1) true) = (s, Fail).
Proof. vm_compute. reflexivity. Qed.

(* (7d) node independence (FULL since /repo 3dd4152; before, the lock step Finalizing dropped its state
   change on a witness node that had not voted and held no broadcast job: former finding
   C15.lock_finalizing_depends_on_local_jobs, an application-hash divergence).  Two nodes that see
   the same transactions and the same committed tracker names, but have ANY different witness
   flags, validator addresses and job stores at each block end, compute the same state — tracker
   stores of lock and redeem trackers alike, balances and ghost log.  (The redeem steps
   VerifyRedeem / RedeemConfirmed may fail on a missing job but write nothing.)  What stays
   node-local is outside this state: the node's job store. *)
Theorem C15_tracker_state_node_independent : forall E ops ops',
  Forall2 op_sim ops ops' -> forall s, run E s ops = run E s ops'.
Proof. exact state_node_independent. Qed.
Print Assumptions C15_tracker_state_node_independent.

(* regression example: a witness node without the broadcast job that has not voted moves the
   tracker to BusyFinalizing like everybody else *)
Example C15_finalizing_without_local_job :
  let s := run E0 (init ∅) [Lock 1%N 1%N; EndBlock {| nl_witness := false; nl_addr := 50%N; nl_bjob := [] |} [1%N];
                            Report 1%N 1%N 20%N 0 true] in
  option_map t_state (ongoing (vstep E0 s (EndBlock {| nl_witness := true; nl_addr := 50%N; nl_bjob := [] |} [1%N])).1 !! 1%N)
    = Some S_BUSYFINALIZING.
Proof. vm_compute. reflexivity. Qed.

(* (8) supply counter = wrapped tokens in circulation ([tot] counts the supply address too, hence
   the factor 2).  FULL over all histories when the configured supply address is not the address
   of a signing key and is not 20 bytes long (true of the shipped configurations:
   "oneledgerSupplyAddress" has 22 bytes, so SEND's Validate refuses it as a target — effective on
   the deliver path since /repo d276709). *)
Theorem C15_supply_always : forall E ops b,
  e_key E (e_supply E) = false -> e_len20 E (e_supply E) = false ->
  tot b = 2 * balof b (e_supply E) -> supply_ok E (run E (init b) ops).
Proof.
  intros E ops b Hk Hl Hb. apply supply_inv_run; [done..|]. split; [done|]. by intros n t ?.
Qed.
Print Assumptions C15_supply_always.

(* for ANY configuration: as long as no step has the supply address as sender, tracker owner or
   transfer end.  If TotalSupplyAddr is configured as a 20-byte string the guard is needed: known
   finding C15.supply_address_transacts (a SEND to it is accepted). *)
Theorem C15_supply_partial : forall E ops s,
  supply_ok E s -> supply_guarded E s ops -> supply_ok E (run E s ops).
Proof.
  intros E ops. induction ops as [|o ops IH]; intros s Hok Hg; [done|]. destruct Hg as [Htr Hg].
  apply IH; [|done]. unfold vstep. destruct (valid E o); [|done].
  destruct (step E s o) eqn:Hstep. by eapply supply_step.
Qed.
Print Assumptions C15_supply_partial.

Definition b0 : gmap acct Z := {[ 1%N := 50; 99%N := 50 ]}.
Theorem C15_refuted_supply : exists E s o,
  e_key E (e_supply E) = false /\ e_len20 E (e_supply E) = true /\
  supply_ok E s /\ trig_supply E s o = true /\ valid E o = true /\ ~ supply_ok E (vstep E s o).1.
Proof.
  exists E1, (init b0), (Transfer 1%N 99%N 10). repeat (split; [by vm_compute|]).
  intros H. vm_compute in H. discriminate.
Qed.
(* the same transfer with the 22-byte address is refused *)
Example C15_send_to_malformed_supply_address_refused :
  vstep E0 (init b0) (Transfer 1%N 99%N 10) = (init b0, Fail).
Proof. vm_compute. reflexivity. Qed.

(* non-vacuity: an honest history satisfies every hypothesis above, mints exactly once, credits
   the owner and keeps the counter equal to the circulation; a failing redeem is refunded once *)
Example C15_honest_history :
  let s := run E0 (init ∅) honest in
  supply_guarded E0 (init ∅) honest /\ minted_names (log s) = [1%N] /\ balof (bal s) 1%N = 100 /\
  balof (bal s) 99%N = 100 /\ has (passed s) 1%N = true /\ has (ongoing s) 1%N = false.
Proof. vm_compute. repeat split; reflexivity. Qed.

Definition redeem_fails : list op :=
  [Redeem 1%N 1%N; Report 1%N 1%N 20%N 0 false; Report 1%N 1%N 20%N 0 false; Report 1%N 1%N 40%N 1 false;
   Report 1%N 1%N 21%N 1 false; Report 1%N 1%N 22%N 2 false; Report 1%N 1%N 23%N 3 false].
Example C15_refund_history :
  let s := run E0 (init b0) redeem_fails in
  supply_guarded E0 (init b0) redeem_fails /\ refunded_names (log s) = [1%N] /\
  balof (bal s) 1%N = 50 /\ balof (bal s) 99%N = 50.
Proof. vm_compute. repeat split; reflexivity. Qed.
