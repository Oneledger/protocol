(* C02 — no value creation.
   Only property theorems here, each an instance or a short consequence of a lemma of proofs/LedgerProofs.v
   (generic ledger) or proofs/LedgerTxProofs.v (per transaction kind: the kind's operations with the fee step are [honest]).
   Model: theories/Ledger.v (records, guarded subtraction, atomic operation lists),
          theories/LedgerTx.v (effect functions written after the Go handlers). *)
From stdpp Require Import gmap list.
From Coq Require Import ZArith NArith.
From OL Require Import theories.Ledger theories.LedgerTx proofs.LedgerProofs proofs.LedgerTxProofs.
Local Open Scope Z_scope.

(* exact accounting, for every currency, ledger and operation list that applies:
   total after = total before + created - destroyed *)
Theorem C02_total_exact : forall c l ops l', apply_ops l ops = Some l' ->
  total c l' = total c l + minted c ops - burned c ops.
Proof. exact total_exact. Qed.
Print Assumptions C02_total_exact.

(* a Move between two counted records of one currency creates nothing *)
Theorem C02_move_creates_nothing : forall c s d v, conservative (Move s d v) = true -> op_mint c (Move s d v) = 0.
Proof. exact move_mints_nothing. Qed.
Print Assumptions C02_move_creates_nothing.

(* a transaction is atomic; the total grows by at most its surplus max(0, created - destroyed) *)
Theorem C02_tx_total_bound : forall c l ops, total c (run_tx l ops) <= total c l + surplus c ops.
Proof. exact run_tx_total_bound. Qed.
Print Assumptions C02_tx_total_bound.

Theorem C02_block_total_bound : forall c txs l, total c (run_block l txs) <= total c l + block_surplus c txs.
Proof. exact run_block_total_bound. Qed.
Print Assumptions C02_block_total_bound.

Theorem C02_history_total_bound : forall c bs l, total c (run_history l bs) <= total c l + history_surplus c bs.
Proof. exact run_history_total_bound. Qed.
Print Assumptions C02_history_total_bound.

(* a block all of whose steps stay within their allowance (0 for user transactions) stays within the sum *)
Theorem C02_block_within_allowance : forall c txs allow,
  Forall2 (fun ops a => minted c ops - burned c ops <= a /\ 0 <= a) txs allow ->
  block_surplus c txs <= fold_right Z.add 0 allow.
Proof. exact block_surplus_bound. Qed.
Print Assumptions C02_block_within_allowance.

(* no stored amount becomes negative: subtractions are guarded, so it is enough that added amounts are >= 0 *)
Theorem C02_nonneg_tx : forall l ops, nonneg l -> forallb credit_nonneg ops = true -> nonneg (run_tx l ops).
Proof. exact run_tx_nonneg. Qed.
Print Assumptions C02_nonneg_tx.

Theorem C02_nonneg_history : forall bs l, nonneg l ->
  Forall (Forall (fun ops => forallb credit_nonneg ops = true)) bs -> nonneg (run_history l bs).
Proof. exact run_history_nonneg. Qed.
Print Assumptions C02_nonneg_history.


(* Per transaction kind (effect functions of LedgerTx.v, written after the Go handlers).
   For EVERY env (currency registered or not, option values, sale state), EVERY payload (negative / huge amounts,
   any currency, any addresses), every fee >= 0 and every ledger: when the model's Validate + handler guards accept,
   the operations of the handler followed by the fee step create nothing in any currency and add only
   non-negative amounts; when they reject, the transaction is a no-op (tx_ops None = None; run_tx of a refused
   list is the identity).  Guards used: SEND/SENDPOOL/DOMAIN_SEND Amount.IsValid; STAKE/UNSTAKE/WITHDRAW value >= 0
   and fits int64 (48c76fc: then the narrowed debit ToCoinWithBase(v) equals the credit v); delegation kinds coin
   valid and OLT (1d1d85c); PROPOSAL_CREATE initial-funding option <= v; PROPOSAL_FUND / PROPOSAL_WITHDRAW_FUNDS v > 0 (782c385, 19a3caa); DOMAIN_* price > base price / per-block fee,
   asking price <= offer.  no_creation ops := forall c, minted c ops - burned c ops <= 0;
   credits_ok ops := every added amount >= 0 (with C02_nonneg_tx: no record becomes negative). *)
Theorem C02_no_creation_send : forall known cur from to v payer fp fee ops, 0 <= fee -> effect_send known cur from to v = Some ops ->
  no_creation (ops ++ fee_ops payer fp fee) /\ credits_ok (ops ++ fee_ops payer fp fee).
Proof. intros. eapply honest_creates_nothing, send_honest; eassumption. Qed.
Print Assumptions C02_no_creation_send.
Theorem C02_no_creation_sendpool : forall known cur from pool v payer fp fee ops, 0 <= fee -> effect_sendpool known cur from pool v = Some ops ->
  no_creation (ops ++ fee_ops payer fp fee) /\ credits_ok (ops ++ fee_ops payer fp fee).
Proof. intros. eapply honest_creates_nothing, sendpool_honest; eassumption. Qed.
Print Assumptions C02_no_creation_sendpool.
Theorem C02_no_creation_stake : forall known cur staker val v payer fp fee ops, 0 <= fee -> effect_stake known cur staker val v = Some ops ->
  no_creation (ops ++ fee_ops payer fp fee) /\ credits_ok (ops ++ fee_ops payer fp fee).
Proof. intros. eapply honest_creates_nothing, stake_honest; eassumption. Qed.
Print Assumptions C02_no_creation_stake.
Theorem C02_no_creation_unstake : forall known cur staker val v h payer fp fee ops, 0 <= fee -> effect_unstake known cur staker val v h = Some ops ->
  no_creation (ops ++ fee_ops payer fp fee) /\ credits_ok (ops ++ fee_ops payer fp fee).
Proof. intros. eapply honest_creates_nothing, unstake_honest; eassumption. Qed.
Print Assumptions C02_no_creation_unstake.
Theorem C02_no_creation_withdraw : forall known cur staker v payer fp fee ops, 0 <= fee -> effect_withdraw known cur staker v = Some ops ->
  no_creation (ops ++ fee_ops payer fp fee) /\ credits_ok (ops ++ fee_ops payer fp fee).
Proof. intros. eapply honest_creates_nothing, withdraw_honest; eassumption. Qed.
Print Assumptions C02_no_creation_withdraw.
Theorem C02_no_creation_delegate : forall known cur u pool v payer fp fee ops, 0 <= fee -> effect_delegate known cur u pool v = Some ops ->
  no_creation (ops ++ fee_ops payer fp fee) /\ credits_ok (ops ++ fee_ops payer fp fee).
Proof. intros. eapply honest_creates_nothing, delegate_honest; eassumption. Qed.
Print Assumptions C02_no_creation_delegate.
Theorem C02_no_creation_undelegate : forall known cur u pool v h payer fp fee ops, 0 <= fee -> effect_undelegate known cur u pool v h = Some ops ->
  no_creation (ops ++ fee_ops payer fp fee) /\ credits_ok (ops ++ fee_ops payer fp fee).
Proof. intros. eapply honest_creates_nothing, undelegate_honest; eassumption. Qed.
Print Assumptions C02_no_creation_undelegate.
Theorem C02_no_creation_rewards_withdraw : forall known cur u v h payer fp fee ops, 0 <= fee -> effect_rewards_withdraw known cur u v h = Some ops ->
  no_creation (ops ++ fee_ops payer fp fee) /\ credits_ok (ops ++ fee_ops payer fp fee).
Proof. intros. eapply honest_creates_nothing, rewards_withdraw_honest; eassumption. Qed.
Print Assumptions C02_no_creation_rewards_withdraw.
Theorem C02_no_creation_reinvest : forall known cur u pool v payer fp fee ops, 0 <= fee -> effect_reinvest known cur u pool v = Some ops ->
  no_creation (ops ++ fee_ops payer fp fee) /\ credits_ok (ops ++ fee_ops payer fp fee).
Proof. intros. eapply honest_creates_nothing, reinvest_honest; eassumption. Qed.
Print Assumptions C02_no_creation_reinvest.
Theorem C02_no_creation_proposal_create : forall known cur p prop v init goal payer fp fee ops, 0 <= fee -> 0 <= init -> effect_proposal_create known cur p prop v init goal = Some ops ->
  no_creation (ops ++ fee_ops payer fp fee) /\ credits_ok (ops ++ fee_ops payer fp fee).
Proof. intros. eapply honest_creates_nothing, proposal_create_honest; eassumption. Qed.
Print Assumptions C02_no_creation_proposal_create.
Theorem C02_no_creation_proposal_fund : forall known cur f prop v payer fp fee ops, 0 <= fee -> effect_proposal_fund known cur f prop v = Some ops ->
  no_creation (ops ++ fee_ops payer fp fee) /\ credits_ok (ops ++ fee_ops payer fp fee).
Proof. intros. eapply honest_creates_nothing, proposal_fund_honest; eassumption. Qed.
Print Assumptions C02_no_creation_proposal_fund.
Theorem C02_no_creation_proposal_withdraw : forall known cur f b prop v payer fp fee ops, 0 <= fee -> effect_proposal_withdraw known cur f b prop v = Some ops ->
  no_creation (ops ++ fee_ops payer fp fee) /\ credits_ok (ops ++ fee_ops payer fp fee).
Proof. intros. eapply honest_creates_nothing, proposal_withdraw_honest; eassumption. Qed.
Print Assumptions C02_no_creation_proposal_withdraw.
Theorem C02_no_creation_domain_create : forall known cur o fp v base payer fee ops, 0 <= fee -> 0 <= base -> effect_domain_create known cur o fp v base = Some ops ->
  no_creation (ops ++ fee_ops payer fp fee) /\ credits_ok (ops ++ fee_ops payer fp fee).
Proof. intros. eapply honest_creates_nothing, domain_create_honest; eassumption. Qed.
Print Assumptions C02_no_creation_domain_create.
Theorem C02_no_creation_domain_renew : forall known cur o fp v pb payer fee ops, 0 <= fee -> 0 <= pb -> effect_domain_renew known cur o fp v pb = Some ops ->
  no_creation (ops ++ fee_ops payer fp fee) /\ credits_ok (ops ++ fee_ops payer fp fee).
Proof. intros. eapply honest_creates_nothing, domain_renew_honest; eassumption. Qed.
Print Assumptions C02_no_creation_domain_renew.
Theorem C02_no_creation_domain_purchase : forall known cur buyer fp offer on_sale sale seller base payer fee ops, 0 <= fee -> 0 <= sale -> 0 <= base -> effect_domain_purchase known cur buyer fp offer on_sale sale seller base = Some ops ->
  no_creation (ops ++ fee_ops payer fp fee) /\ credits_ok (ops ++ fee_ops payer fp fee).
Proof. intros. eapply honest_creates_nothing, domain_purchase_honest; eassumption. Qed.
Print Assumptions C02_no_creation_domain_purchase.
Theorem C02_no_creation_domain_send : forall known cur from benef v payer fp fee ops, 0 <= fee -> effect_domain_send known cur from benef v = Some ops ->
  no_creation (ops ++ fee_ops payer fp fee) /\ credits_ok (ops ++ fee_ops payer fp fee).
Proof. intros. eapply honest_creates_nothing, domain_send_honest; eassumption. Qed.
Print Assumptions C02_no_creation_domain_send.

(* WITHDRAW_REWARD: FULL since /repo 45cfd0d (negative amounts refused) and ed95e98 (amounts beyond int64 refused: 2^64-2 used to be
   narrowed to -2).  The former witnesses are rejected, ledger unchanged: *)
Theorem C02_no_creation_withdraw_reward : forall known cur signer rpool v payer fp fee ops, 0 <= fee ->
  effect_withdraw_reward known cur signer rpool v = Some ops ->
  no_creation (ops ++ fee_ops payer fp fee) /\ credits_ok (ops ++ fee_ops payer fp fee).
Proof. intros. eapply honest_creates_nothing, withdraw_reward_honest; eassumption. Qed.
Print Assumptions C02_no_creation_withdraw_reward.
Example C02_former_witness_withdraw_reward_rejected :
  effect_withdraw_reward true 0 1 2 (-1) = None /\ effect_withdraw_reward true 0 1 2 (2 ^ 64 - 2) = None /\
  wrap64 (2 ^ 64 - 2) = -2 /\ effect_withdraw_reward true 0 1 2 (2 ^ 64 + 1) = None /\
  effect_withdraw_reward true 0 1 2 3 = Some [Burn (bal 2 0) (3 * E18); Mint (bal 1 0) (3 * E18)].
Proof. vm_compute. auto. Qed.

(* PROPOSAL_FUND and PROPOSAL_WITHDRAW_FUNDS are FULL since /repo 782c385 / 19a3caa (the handlers require a positive amount).
   The former refutation witnesses (findings C02.proposal_fund_negative / C02.withdraw_funds_negative, fixed) are rejected now: *)
Definition l_w : gmap key Z := ladd (ladd ∅ (bal 1 0) 1000) (bal 2 0) 3.
Example C02_former_witness_proposal_fund_rejected :
  effect_proposal_fund true 0 1 7 (-5) = None /\ effect_proposal_fund true 0 1 7 0 = None /\
  run_tx l_w (default [] (tx_ops (effect_proposal_fund true 0 1 7 (-5)) 1 9 1)) = l_w /\
  effect_proposal_fund true 0 1 7 5 = Some [Burn (bal 1 0) 5; Mint (mk 1 B_PROPFUND 0 7) 5].
Proof.
  (* by conversion, which reaches l_w = l_w without evaluating the map; vm_compute would leave two large normal forms to compare *)
  repeat split.
Qed.
Example C02_former_witness_proposal_withdraw_rejected :
  effect_proposal_withdraw true 0 1 2 7 (-5) = None /\ effect_proposal_withdraw true 0 1 2 7 0 = None /\
  effect_proposal_withdraw true 0 1 2 7 5 = Some [Burn (mk 1 B_PROPFUND 0 7) 5; Mint (bal 2 0) 5].
Proof. vm_compute. auto. Qed.

(* bid app (external_apps/bid): the locked amount of a bid is a ledger record of the bidder.
   BID_CREATE (guard: OLT, Amount.IsValid - f99f70a), unlocking (counter offer, cancel, reject, the PUBLIC unguarded BID_EXPIRE),
   owner accept (escrow -> owner) and bidder accept of a counter offer (bidder -> owner) create nothing, add only amounts >= 0
   and take only from the bidder (his balance or his escrow record) and the fee payer *)
Theorem C02_no_creation_bid_create : forall known cur bidder conv v hc c payer fp fee ops, 0 <= fee ->
  effect_bid_create known cur bidder conv v hc c = Some ops ->
  no_creation (ops ++ fee_ops payer fp fee) /\ credits_ok (ops ++ fee_ops payer fp fee) /\ takes_only_from (ops ++ fee_ops payer fp fee) [bidder; payer].
Proof. intros. eapply bid_create_honest; eassumption. Qed.
Print Assumptions C02_no_creation_bid_create.
Theorem C02_no_creation_bid_unlock : forall (l : gmap key Z) (bidder conv payer fp : N) (fee : Z), 0 <= fee -> nonneg l ->
  no_creation (unlock_ops l bidder conv ++ fee_ops payer fp fee) /\ credits_ok (unlock_ops l bidder conv ++ fee_ops payer fp fee) /\
  takes_only_from (unlock_ops l bidder conv ++ fee_ops payer fp fee) [bidder; payer] /\
  forall a c, a <> payer -> holdings a c (run_tx l (unlock_ops l bidder conv)) = holdings a c l.
Proof.
  intros l bidder conv payer fp fee F NN. destruct (escrow_move_honest payer fp fee F l bidder conv bidder NN) as (A & B & C).
  auto using unlock_neutral.
Qed.
Print Assumptions C02_no_creation_bid_unlock.
Theorem C02_no_creation_bid_owner_accept : forall (l : gmap key Z) (bidder owner conv payer fp : N) (fee : Z) ops, 0 <= fee -> nonneg l ->
  effect_bid_owner_accept l bidder owner conv = Some ops ->
  no_creation (ops ++ fee_ops payer fp fee) /\ credits_ok (ops ++ fee_ops payer fp fee) /\ takes_only_from (ops ++ fee_ops payer fp fee) [bidder; payer].
Proof. intros * F NN [= <-]. exact (escrow_move_honest payer fp fee F l bidder conv owner NN). Qed.
Print Assumptions C02_no_creation_bid_owner_accept.
Theorem C02_no_creation_bid_bidder_accept : forall bidder owner c payer fp fee ops, 0 <= fee -> effect_bid_bidder_accept bidder owner c = Some ops ->
  no_creation (ops ++ fee_ops payer fp fee) /\ credits_ok (ops ++ fee_ops payer fp fee) /\ takes_only_from (ops ++ fee_ops payer fp fee) [bidder; payer].
Proof. intros. eapply bid_bidder_accept_honest; eassumption. Qed.
Print Assumptions C02_no_creation_bid_bidder_accept.
(* the former witness of finding C02.bid_negative_amount (fixed by f99f70a) is rejected; an ordinary bid locks, a counter offer unlocks *)
Example C02_former_witness_bid_negative_rejected :
  effect_bid_create true 0 1 7 (-5) false 0 = None /\ effect_bid_create true 0 1 7 5 false 0 = Some [Move (bal 1 0) (esc 1 7) 5] /\
  (let l := ladd (ladd ∅ (bal 1 0) 95) (esc 1 7) 5 in effect_bid_counter l true 0 1 7 9 = Some [Move (esc 1 7) (bal 1 0) 5] /\
   effect_bid_counter l true 0 1 7 5 = None /\ total 0 (run_tx l (unlock_ops l 1 7)) = 100 /\ holdings 1 0 (run_tx l (unlock_ops l 1 7)) = 100).
Proof. vm_compute. repeat split; reflexivity. Qed.

(* wrapped currencies: "for wrapped currencies, [the total grows only] by locks or failed-redeem refunds":
   the mint of a finalised lock creates exactly the locked amount in its currency; a redeem destroys; the refund of a failed
   redeem restores exactly what that redeem burnt (burn .. refund is neutral, whatever happens in between) *)
Theorem C02_eth_lock_mint_is_the_allowance : forall owner cur locked c,
  minted c (effect_eth_lock_mint owner cur locked) - burned c (effect_eth_lock_mint owner cur locked) = if (cur =? c)%N then locked else 0.
Proof. intros. cbn. rewrite tw_bal. destruct (cur =? c)%N; lia. Qed.
Print Assumptions C02_eth_lock_mint_is_the_allowance.
Theorem C02_eth_redeem_then_refund_neutral : forall owner cur amount ops mid c, effect_eth_redeem_burn owner cur amount = Some ops ->
  minted c (ops ++ mid ++ effect_eth_redeem_refund owner cur amount) - burned c (ops ++ mid ++ effect_eth_redeem_refund owner cur amount)
  = minted c mid - burned c mid.
Proof. intros * [_ <-]%if_some. rewrite !minted_app, !burned_app. simpl. lia. Qed.
Print Assumptions C02_eth_redeem_then_refund_neutral.
Theorem C02_no_creation_eth_redeem : forall owner cur amount payer fp fee ops, 0 <= fee -> effect_eth_redeem_burn owner cur amount = Some ops ->
  no_creation (ops ++ fee_ops payer fp fee) /\ credits_ok (ops ++ fee_ops payer fp fee) /\ takes_only_from (ops ++ fee_ops payer fp fee) [owner; payer].
Proof. intros. eapply eth_redeem_burn_honest; eassumption. Qed.
Print Assumptions C02_no_creation_eth_redeem.
(* a refund that differs from the burn is NOT neutral (what the monitor "refund of tracker T = amount burnt at T's creation" looks for) *)
Example C02_ex_refund_must_equal_burn :
  let l := ladd ∅ (bal 1 1) 500 in
  total 1 (run_tx l ([Burn (bal 1 1) 200] ++ effect_eth_redeem_refund 1 1 200)) = 500 /\
  total 1 (run_tx l ([Burn (bal 1 1) 1] ++ effect_eth_redeem_refund 1 1 100000)) = 100499.
Proof. vm_compute. auto. Qed.

(* OLVM transactions: transfer, call, contract creation at the transaction level *)
Theorem C02_no_creation_olvm : forall sender target fp value reverted fee ops, effect_olvm sender target fp value reverted fee = Some ops ->
  no_creation ops /\ credits_ok ops /\ takes_only_from ops [sender].
Proof. exact olvm_honest. Qed.
Print Assumptions C02_no_creation_olvm.
(* a contract creation conserves every total WHATEVER the new contract's address already held, and the contract ends with exactly
   what the address held plus the endowment *)
Theorem C02_olvm_creation_conserves : forall (l : gmap key Z) sender target fp value fee ops c, sender <> target ->
  effect_olvm sender target fp value false fee = Some ops -> forall l', apply_ops l ops = Some l' ->
  total c l' = total c l /\ lget l' (bal target CUR_OLT) = lget l (bal target CUR_OLT) + value.
Proof. exact olvm_create_conserves. Qed.
Print Assumptions C02_olvm_creation_conserves.
Example C02_ex_creation_at_a_funded_address :
  let l := ladd (ladd ∅ (bal 1 0) 1000) (bal 7 0) 400 in
  match effect_olvm 1 7 9 5 false 30 with
  | Some ops => lget (run_tx l ops) (bal 7 0) = 405 /\ total 0 (run_tx l ops) = 1400
  | None => False
  end.
Proof. vm_compute. auto. Qed.

(* C02_no_creation_domain_purchase above holds for ALL buyer / seller, equal ones included: when the owner buys its own name on
   sale the asking price moves from the account to itself and only the rest of the offer (to the fee pool) leaves it *)
Example C02_ex_owner_buys_its_own_name :
  let l := ladd ∅ (bal 1 0) 1000 in
  match effect_domain_purchase true 0 1 9 60 true 50 1 0 with
  | Some ops => total 0 (run_tx l ops) = 1000 /\ lget (run_tx l ops) (bal 1 0) = 990 /\ lget (run_tx l ops) (feepool 9) = 10
  | None => False
  end.
Proof. vm_compute. auto. Qed.

(* a transaction that creates nothing does not raise the total; lifted to blocks / histories by C02_block_total_bound *)
Theorem C02_no_creation_total : forall c l ops, no_creation ops -> total c (run_tx l ops) <= total c l.
Proof. exact no_creation_total. Qed.
Print Assumptions C02_no_creation_total.

(* BeginBlock creates exactly the accrued delegation rewards (OLT) - the allowance - and nothing in other currencies *)
Theorem C02_accrual_is_the_allowance : forall c accr,
  minted c (accrual_ops accr) - burned c (accrual_ops accr) = if (c =? CUR_OLT)%N then accrued accr else 0.
Proof. exact accrual_minted. Qed.
Print Assumptions C02_accrual_is_the_allowance.
(* the end-block fee distribution moves within the fee bucket (creates nothing) and its floor shares are >= 0 *)
Theorem C02_fee_distribution_conservative : forall fp total minfee tp vals, forallb conservative (fee_dist_ops fp total minfee tp vals) = true.
Proof. exact fee_dist_conservative. Qed.
Print Assumptions C02_fee_distribution_conservative.
Theorem C02_fee_distribution_credits : forall fp total minfee tp vals, 0 <= total -> forallb credit_nonneg (fee_dist_ops fp total minfee tp vals) = true.
Proof. exact fee_dist_credits. Qed.
Print Assumptions C02_fee_distribution_credits.
(* the allegation penalty (guilty verdict at EndBlock) destroys at least what the bounty program receives: for every ledger,
   validator, option values with 0 <= bounty% <= bountyDecimals; C19 proves the penalty's size and the verdict rule *)
Theorem C02_no_creation_allegation_penalty : forall (l : gmap key Z) (stake val bounty : N) (pct dec bpct bdec : Z),
  0 <= val_total l val -> 0 <= pct -> 0 < dec -> 0 <= bpct <= bdec -> 0 < bdec ->
  no_creation (penalty_ops l stake val bounty pct dec bpct bdec) /\ credits_ok (penalty_ops l stake val bounty pct dec bpct bdec) /\
  takes_only_from (penalty_ops l stake val bounty pct dec bpct bdec) [stake].
Proof. exact penalty_honest. Qed.
Print Assumptions C02_no_creation_allegation_penalty.
Example C02_ex_penalty : let l := ladd ∅ (mk 3 B_STAKE 0 4) (3000000 * E18) in
  penalty_ops l 3 4 8 30 100 50 100 = [Burn (mk 3 B_STAKE 0 4) (900000 * E18); Mint (bal 8 0) (450000 * E18)].
Proof. vm_compute. reflexivity. Qed.
Example C02_ex_fee_distribution : fee_dist_ops 9 100 10 7 [(1%N, 3); (2%N, 4); (3%N, 0)] =
  [Move (feepool 9) (mk 1 B_FEE 0 0) 42; Move (feepool 9) (mk 2 B_FEE 0 0) 57].
Proof. vm_compute. reflexivity. Qed.
Example C02_ex_stake_int64 : effect_stake true 0 1 2 (2 ^ 64) = None /\ effect_stake true 0 1 2 5 = Some [Burn (bal 1 0) (5 * E18); Mint (mk 1 B_STAKE 0 2) (5 * E18)].
Proof. vm_compute. auto. Qed.

(* non-vacuity / the hypotheses matter *)
Definition kA : key := mk 1 B_BAL 0 0.
Definition kB : key := mk 2 B_BAL 0 0.
Definition l_ex : gmap key Z := ladd (ladd ∅ kA 100) kB 5.
Example C02_ex_move : total 0 (run_tx l_ex [Move kA kB 30]) = 105 /\ lget (run_tx l_ex [Move kA kB 30]) kB = 35.
Proof. vm_compute. auto. Qed.
Example C02_ex_refused_is_noop : run_tx l_ex [Move kA kB 30; Burn kB 1000] = l_ex.
Proof. reflexivity. Qed.  (* not vm_compute: as for l_w above *)
(* a negative amount reaching a guarded subtraction is a credit: without the per-kind validation guards
   the ledger primitives themselves do create value (this is why every effect function has its guard) *)
Example C02_negative_burn_creates_refuted : total 0 (run_tx l_ex [Burn kA (-7)]) = 112 /\ surplus 0 [Burn kA (-7)] = 7.
Proof. vm_compute. auto. Qed.
Example C02_negative_move_goes_negative_refuted : lget (run_tx l_ex [Move kA kB (-9)]) kB = -4.
Proof. vm_compute. reflexivity. Qed.
