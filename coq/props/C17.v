(* C17 — OLVM transactions keep one ledger and charge exactly the gas used.
   Only property theorems here; the lemmas they follow from are in proofs/OlvmProofs.v.
   The EVM interpreter is an oracle: every theorem quantifies over ALL its answers
   (gas left, refund counter, failure flag, the code's own OLT transfers, self-destructed
   accounts), over all ledgers and all transactions. *)
From stdpp Require Import gmap list.
From Coq Require Import ZArith.
From OL Require Import theories.Olvm theories.OlvmCheck proofs.OlvmProofs.
Local Open Scope Z_scope.

(* (1) one ledger: for EVERY state — hence before and after every transaction of either kind —
   the balance the EVM reads for an account (state object <- keeper.GetAccount, including the
   legacy path for accounts without a keeper record) is the native balance record *)
Theorem C17_one_ledger : forall s a, evm_view s a = native_view s a.
Proof. exact evm_view_eq. Qed.
Print Assumptions C17_one_ledger.

Theorem C17_one_ledger_history : forall steps s a,
  evm_view (run s steps) a = native_view (run s steps) a.
Proof. intros. apply evm_view_eq. Qed.
Print Assumptions C17_one_ledger_history.

(* (2) a transaction that is not executed — refused by Validate (wrong chain id / signature,
   price below the minimum, negative value, gas above the simulation limit, nonce too low,
   insufficient funds, gas below intrinsic, memo <> nonce; run by DeliverTx since /repo d276709),
   failed consensus pre-check at any stage (also after buyGas has debited the session), failed
   fee step, or duplicate — changes nothing *)
Theorem C17_not_executed_unchanged : forall s e t o,
  (forall f u, (deliver_olvm s e t o).1 <> Executed f u) -> (deliver_olvm s e t o).2 = s.
Proof.
  intros s e t o H. unfold deliver_olvm in *.
  repeat case_match; try reflexivity. destruct (H _ _ eq_refl).
Qed.
Print Assumptions C17_not_executed_unchanged.

(* Validate is a gate of execution: what it refuses on the deliver state is not executed, and
   whatever is executed has passed it (in particular: signed for this chain by the sender, priced
   at or above the minimum fee — no free or foreign-chain execution by a block proposer) *)
Theorem C17_invalid_not_executed : forall s e t o,
  validate s (e_min_fee e) t = false ->
  (deliver_olvm s e t o).2 = s /\
  ((deliver_olvm s e t o).1 = NotExecuted \/ (deliver_olvm s e t o).1 = Duplicate).
Proof.
  intros s e t o Hv. unfold deliver_olvm. rewrite Hv. destruct (e_dup e); auto.
Qed.
Print Assumptions C17_invalid_not_executed.

Theorem C17_executed_validated : forall s e t o f used s',
  well_formed e t o -> deliver_olvm s e t o = (Executed f used, s') ->
  validate s (e_min_fee e) t = true.
Proof.
  intros s e t o f used s' Hwf (Ha & _)%executed_inv; [|exact Hwf]. apply admitted_iff in Ha. tauto.
Qed.
Print Assumptions C17_executed_validated.

(* (3) exact charge: an executed transaction (successful or VM-failed) reports 0 < gasUsed <= limit,
   credits the fee pool exactly gasUsed*price — for every oracle answer, refund counter and
   self-destructs included — debits the sender exactly gasUsed*price + value moved, credits the
   recipient the value moved (0 when the VM failed), leaves every other account to the code's
   own transfers, and raises the sender's nonce by exactly one (the sender, an externally owned
   account, is not among the accounts that executed SELFDESTRUCT) *)
Theorem C17_exact_charge : forall s e t o f used s',
  well_formed e t o ->
  deliver_olvm s e t o = (Executed f used, s') ->
  f = o_failed o /\ 0 < used <= t_gas t /\
  pool s' = pool s + used * t_price t /\
  (forall a, balance s' a =
     balance s a
     + (if decide (a = t_from t) then - (used * t_price t + moved t f) else 0)
     + (if decide (a = recipient e t) then moved t f else 0)
     + (if f then 0 else delta_int (o_int o) a)) /\
  (survives o (t_from t) -> recipient e t <> t_from t ->
   nonce_of s' (t_from t) = nonce_of s (t_from t) + 1).
Proof.
  intros s e t o f used s' Hwf (Ha & -> & -> & ->)%executed_inv; [|exact Hwf].
  split; [reflexivity|]. split; [apply (admitted_gas s e t o Hwf Ha)|].
  split; [apply exec_state_pool|]. split; [intros a; apply exec_state_balance|].
  intros Hsd Hne. apply exec_state_nonce_sender; auto.
Qed.
Print Assumptions C17_exact_charge.

(* (4) conservation, FULL (since /repo 8b9b1c9: removing an EVM account writes its balance
   record): total OLT over any set of accounts containing everything the transaction touches,
   plus the fee pool, changes by exactly the net of the code's own transfers (0 for transfers
   between accounts, SELFDESTRUCT included): buyGas - refund = gasUsed*price = the separate
   AddToPool credit *)
Theorem C17_conservation : forall s e t o f used s' l,
  well_formed e t o ->
  deliver_olvm s e t o = (Executed f used, s') ->
  NoDup l -> t_from t ∈ l -> recipient e t ∈ l -> (forall p, p ∈ o_int o -> p.1 ∈ l) ->
  total_over s' l = total_over s l + (if f then 0 else sum_int (o_int o)).
Proof. exact conservation. Qed.
Print Assumptions C17_conservation.

Definition w_state : state :=
  {| bal := list_to_map [(0%N, 1000000000000000000); (1%N, 5000)] ;
     seqs := list_to_map [(0%N, 3); (1%N, 1)] ; pool := 0 |}.
Definition w_env : env :=
  {| e_block_gas := MaxInt64 ; e_sender_code := false ; e_created := 9%N ; e_dup := false ;
     e_min_fee := 1000000000 |}.
Definition w_call (nonce : Z) : otx :=
  {| t_from := 0%N ; t_to := Some 1%N ; t_value := 11 ; t_gas := 100000 ; t_price := 1000000000 ;
     t_nonce := nonce ; t_nz := 0 ; t_z := 0 ; t_chain_ok := true ; t_memo_ok := true |}.
Definition w_suicide : oracle :=
  {| o_left := 73998 ; o_refund := 0 ; o_failed := false ;
     o_int := [(1%N, -5011); (0%N, 5011)] ; o_dead := [1%N] |}.
Definition w_plain : oracle :=
  {| o_left := 79000 ; o_refund := 0 ; o_failed := false ; o_int := [] ; o_dead := [] |}.

(* the former witness of the refutation (fixed finding C17.selfdestruct_funded): a contract
   holding 5000 self-destructs towards the caller of a call carrying 11 — the caller receives
   5011, the contract's record is written as 0, its keeper record is gone, total unchanged *)
Example C17_selfdestruct_conserves :
  let s' := (deliver_olvm w_state w_env (w_call 3) w_suicide).2 in
  selfdestruct_funded w_state w_suicide = true /\
  (deliver_olvm w_state w_env (w_call 3) w_suicide).1 = Executed false 26002 /\
  balance s' 1%N = 0 /\ nonce_of s' 1%N = 0 /\
  balance s' 0%N = 1000000000000000000 - 26002 * 1000000000 - 11 + 5011 /\
  total_over s' [0%N; 1%N] = total_over w_state [0%N; 1%N].
Proof. vm_compute. intuition discriminate. Qed.

(* (5) the nonce rule, FULL (since /repo 579eea0: preCheck rejects state < msg as well): an
   executed transaction carries exactly the account's nonce; any other nonce is never executed *)
Theorem C17_nonce_exact : forall s e t o f used s',
  well_formed e t o ->
  deliver_olvm s e t o = (Executed f used, s') -> t_nonce t = nonce_of s (t_from t).
Proof.
  intros s e t o f used s' Hwf (Ha & _)%executed_inv; [|exact Hwf].
  symmetry. exact (admitted_nonce s e t Ha).
Qed.
Print Assumptions C17_nonce_exact.

Theorem C17_wrong_nonce_not_executed : forall s e t o,
  well_formed e t o -> nonce_of s (t_from t) <> t_nonce t ->
  forall f u, (deliver_olvm s e t o).1 <> Executed f u.
Proof.
  intros s e t o Hwf Hne f u. rewrite (deliver_olvm_eq s e t o Hwf).
  destruct (admitted s e t) eqn:Ha; [destruct (Hne (admitted_nonce s e t Ha))|].
  destruct (e_dup e); discriminate.
Qed.
Print Assumptions C17_wrong_nonce_not_executed.

(* (6) at most once, FULL: after its execution the account nonce is above the transaction's
   nonce, and the same transaction — any encoding, any environment, any interpreter answer —
   is not executed again (and by C17_wrong_nonce_not_executed not in any later state whose
   account nonce differs from it) *)
Theorem C17_no_second_execution : forall s e t o f used s' e2 o2,
  well_formed e t o -> well_formed e2 t o2 ->
  survives o (t_from t) -> recipient e t <> t_from t ->
  deliver_olvm s e t o = (Executed f used, s') ->
  t_nonce t < nonce_of s' (t_from t) /\
  forall f2 u2, (deliver_olvm s' e2 t o2).1 <> Executed f2 u2.
Proof.
  intros s e t o f used s' e2 o2 Hwf Hwf2 Hsd Hne Hd.
  pose proof (C17_nonce_exact s e t o f used s' Hwf Hd) as Hn.
  apply executed_inv in Hd as (_ & _ & _ & ->); [|exact Hwf].
  pose proof (exec_state_nonce_sender s e t o Hsd (fun _ => Hne)) as Hn'.
  split; [lia|]. apply C17_wrong_nonce_not_executed; [exact Hwf2|lia].
Qed.
Print Assumptions C17_no_second_execution.

(* the former witness (fixed finding C17.nonce_gap): nonce = account nonce + 2 is not executed *)
Example C17_nonce_gap_rejected :
  nonce_gap w_state (w_call 5) = true /\
  deliver_olvm w_state w_env (w_call 5) w_plain = (NotExecuted, w_state).
Proof.
  (* not [vm_compute]: the ledger returned is the term [w_state] itself, and its normal form
     carries the maps' well-formedness proofs *)
  split; reflexivity.
Qed.

(* (7) Validate (the same function in CheckTx and DeliverTx) accepting a transaction that carries
   exactly the account's nonce implies that every consensus pre-check passes on that ledger (block
   gas and the sender-is-EOA test aside).  Without the exact-nonce hypothesis the statement is
   false: validateEthTx accepts a nonce ahead of the account's (mempool leniency), preCheck
   rejects it. *)
Theorem C17_validated_executes : forall s e t o,
  well_formed e t o -> validate s (e_min_fee e) t = true -> nonce_gap s t = false ->
  e_dup e = false -> e_sender_code e = false -> gas_u64 t <= e_block_gas e ->
  exists f u, (deliver_olvm s e t o).1 = Executed f u.
Proof.
  intros s e t o Hwf Hv Hgap Hdup Hcode Hbg. rewrite (deliver_olvm_eq s e t o Hwf).
  rewrite (proj2 (admitted_iff s e t)) by auto. eauto.
Qed.
Print Assumptions C17_validated_executes.

Example C17_validated_gap_not_executed :
  validate w_state (e_min_fee w_env) (w_call 5) = true /\ nonce_gap w_state (w_call 5) = true /\
  (deliver_olvm w_state w_env (w_call 5) w_plain).1 = NotExecuted.
Proof. vm_compute. auto. Qed.

(* formerly executed by DeliverTx (C04's unvalidated deliver path), now refused with no effect:
   wrong chain id, zero gas price *)
Example C17_wrong_chain_and_free_rejected :
  let wrong_chain := {| t_from := 0%N ; t_to := Some 1%N ; t_value := 11 ; t_gas := 100000 ;
     t_price := 1000000000 ; t_nonce := 3 ; t_nz := 0 ; t_z := 0 ; t_chain_ok := false ; t_memo_ok := true |} in
  let free := {| t_from := 0%N ; t_to := Some 1%N ; t_value := 11 ; t_gas := 100000 ;
     t_price := 0 ; t_nonce := 3 ; t_nz := 0 ; t_z := 0 ; t_chain_ok := true ; t_memo_ok := true |} in
  deliver_olvm w_state w_env wrong_chain w_plain = (NotExecuted, w_state) /\
  deliver_olvm w_state w_env free w_plain = (NotExecuted, w_state).
Proof. split; reflexivity. Qed.

(* (8) native SEND on the same ledger, behind sendTx.Validate: exact charge, failure (Validate
   included) is a no-op, conservation *)
Theorem C17_send_exact : forall s m t used s',
  deliver_send s m t used = (true, s') ->
  send_validate m t = true /\
  pool s' = pool s + n_price t * used /\
  (forall a, balance s' a = balance s a
     + (if decide (a = n_from t) then - (n_amount t + n_price t * used) else 0)
     + (if decide (a = n_to t) then n_amount t else 0)) /\
  (forall a, nonce_of s' a = nonce_of s a).
Proof.
  intros s m t used s' [Hv ->]%send_inv.
  split; [exact Hv|]. split; [reflexivity|]. split; [|reflexivity].
  intros a. rewrite balance_add_pool, !balance_add_bal.
  destruct (decide (a = n_from t)); lia.
Qed.
Print Assumptions C17_send_exact.

Theorem C17_send_failed_unchanged : forall s m t used,
  (deliver_send s m t used).1 = false -> (deliver_send s m t used).2 = s.
Proof.
  intros s m t used. unfold deliver_send. repeat case_match; reflexivity || discriminate.
Qed.

Theorem C17_send_conservation : forall s m t used s' l,
  deliver_send s m t used = (true, s') -> NoDup l -> n_from t ∈ l -> n_to t ∈ l ->
  total_over s' l = total_over s l.
Proof.
  intros s m t used s' l [_ ->]%send_inv Hnd Hf Ht.
  rewrite total_over_add_pool, !total_over_add_bal by assumption. lia.
Qed.
Print Assumptions C17_send_conservation.

(* non-vacuity: the hypotheses of (3)/(4) are satisfiable — a successful call with a refund, a
   reverted call, a creation; and every pre-check stage rejects on some input *)
Example C17_nonvacuous_executed :
  let o := {| o_left := 60000 ; o_refund := 4800 ; o_failed := false ; o_int := [] ; o_dead := [] |} in
  well_formed w_env (w_call 3) o /\
  deliver_olvm w_state w_env (w_call 3) o =
    (Executed false 35200,
     (deliver_olvm w_state w_env (w_call 3) o).2) /\
  balance (deliver_olvm w_state w_env (w_call 3) o).2 0%N = 1000000000000000000 - 35200 * 1000000000 - 11 /\
  balance (deliver_olvm w_state w_env (w_call 3) o).2 1%N = 5011 /\
  pool (deliver_olvm w_state w_env (w_call 3) o).2 = 35200 * 1000000000 /\
  nonce_of (deliver_olvm w_state w_env (w_call 3) o).2 0%N = 4.
Proof.
  intros o. split; [vm_compute; intuition discriminate|].
  split; [|vm_compute; auto].
  (* the committed state is the same term on both sides: only the outcome is evaluated *)
  etrans; [apply surjective_pairing|]. f_equal; reflexivity.
Qed.

Example C17_nonvacuous_reverted :
  let o := {| o_left := 1000 ; o_refund := 0 ; o_failed := true ; o_int := [] ; o_dead := [] |} in
  (deliver_olvm w_state w_env (w_call 3) o).1 = Executed true 99000 /\
  balance (deliver_olvm w_state w_env (w_call 3) o).2 1%N = 5000 /\
  nonce_of (deliver_olvm w_state w_env (w_call 3) o).2 0%N = 4.
Proof. vm_compute. auto. Qed.

Example C17_nonvacuous_rejected :
  (deliver_olvm w_state w_env (w_call 2) w_plain).1 = NotExecuted /\                       (* nonce too low *)
  (deliver_olvm w_state w_env (w_call 4) w_plain).1 = NotExecuted /\                       (* nonce too high *)
  (deliver_olvm w_state w_env
     {| t_from := 0%N ; t_to := None ; t_value := 0 ; t_gas := 52999 ; t_price := 1 ; t_nonce := 3 ;
        t_nz := 0 ; t_z := 0 ; t_chain_ok := true ; t_memo_ok := true |} w_plain).1 = NotExecuted /\   (* gas below intrinsic *)
  (deliver_olvm w_state w_env
     {| t_from := 1%N ; t_to := Some 0%N ; t_value := 0 ; t_gas := 21000 ; t_price := 1 ; t_nonce := 1 ;
        t_nz := 0 ; t_z := 0 ; t_chain_ok := true ; t_memo_ok := true |} w_plain).1 = NotExecuted.    (* cannot pay the gas *)
Proof. vm_compute. auto. Qed.
