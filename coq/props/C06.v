(* C06 — failed transactions are atomic no-ops.  Only property theorems here. *)
From stdpp Require Import gmap list.
From Coq Require Import ZArith String.
From OL Require Import theories.Store theories.Abci proofs.StoreProofs proofs.AbciProofs
  gen.Facts_Wrapper.
Local Open Scope Z_scope.

(* tie to the source: txDeliverer, and the two internal-transaction loops that run at block end,
   open the session before the handler, run the fee step inside it, commit only under
   ok (&& feeOk) and discard otherwise — as [Abci.deliver] assumes.  Regenerated on every run. *)
Theorem C06_fact_deliverer : wrapper_ok deliverer = true /\ deliverer_guard = "ok_and_fee"%string
                             /\ deliverer_no_return_inside = true
                             /\ deliverer_validate_guards_handler = true.
Proof. vm_compute. auto. Qed.

Theorem C06_fact_internal_loops :
  wrapper_ok expire_proposals = true /\ expire_proposals_guard = "ok"%string /\
  wrapper_ok finalize_proposals = true /\ finalize_proposals_guard = "ok"%string.
Proof. vm_compute. auto. Qed.

(* for EVERY handler program and fee program (adaptive, state dependent, failing at any point
   after any partial updates), every state: a delivered transaction that returns a non-zero code
   leaves every component of the state unchanged except the block gas counter *)
Theorem C06_failed_is_noop : forall s h fee, sess s = None ->
  (deliver s h fee).1 = false -> exists g, (deliver s h fee).2 = with_gas s g.
Proof. exact (fun s => failed_deliver_v_is_noop s (Ret true)). Qed.
Print Assumptions C06_failed_is_noop.

(* no delivered transaction, failed or not, leaves a session open or touches the tree, the saved
   versions or the tree-call log *)
Theorem C06_deliver_frame : forall s h fee, sess s = None ->
  let s' := (deliver s h fee).2 in
  sess s' = None /\ tree s' = tree s /\ saved s' = saved s /\ version s' = version s /\
  wlog s' = wlog s.
Proof. exact (fun s h fee _ => deliver_v_frame s (Ret true) h fee). Qed.

(* removing every failed transaction from any block yields the same results for the remaining
   transactions and the same final state (hence the same commit), in the gas-free semantics;
   C09_gas_erasure carries it to metered blocks that stay below the gas limit.  The proviso is
   real: the gas counter is the one thing a failed transaction advances. *)
Theorem C06_block_without_failed : forall txs s, sess s = None -> gas s = None ->
  let '(res, s') := run_block s txs in
  run_block s (drop_failed txs res) = (only_ok res, s').
Proof. exact block_without_failed. Qed.
Print Assumptions C06_block_without_failed.

(* the same three statements for the deliverer as it is now written: BeginTxSession, then
   handler.Validate (an arbitrary program as well); a rejection discards the session and returns
   before the handler and the fee step *)
Theorem C06_failed_is_noop_validating : forall s v h fee, sess s = None ->
  (deliver_v s v h fee).1 = false -> exists g, (deliver_v s v h fee).2 = with_gas s g.
Proof. exact failed_deliver_v_is_noop. Qed.
Print Assumptions C06_failed_is_noop_validating.

Theorem C06_deliver_frame_validating : forall s v h fee, sess s = None ->
  let s' := (deliver_v s v h fee).2 in
  sess s' = None /\ tree s' = tree s /\ saved s' = saved s /\ version s' = version s /\
  wlog s' = wlog s.
Proof. exact (fun s v h fee _ => deliver_v_frame s v h fee). Qed.

Theorem C06_block_without_failed_validating : forall txs s, sess s = None -> gas s = None ->
  let '(res, s') := run_block_v s txs in
  run_block_v s (drop_failed_v txs res) = (only_ok res, s').
Proof. exact block_v_without_failed. Qed.
Print Assumptions C06_block_without_failed_validating.

(* non-vacuity: a handler that writes, deletes, reads its own write and then fails *)
Example C06_nonvacuous :
  let h := PSet 1%N [7%N] (fun _ => PDel 2%N (PGet 1%N (fun r => Ret (bool_decide (r = None))))) in
  let s0 := (step (step (init {| recent := 0; every := 0; cycles := 0 |}) (Fresh (Some 100000))).2
                  (Set_ 2%N [9%N])).2 in
  (deliver s0 h (fun _ => Ret true)).1 = false /\
  cache (deliver s0 h (fun _ => Ret true)).2 = cache s0 /\
  (deliver s0 (PSet 1%N [7%N] (fun _ => Ret true)) (fun _ => Ret true)).1 = true.
Proof. repeat split; reflexivity. Qed.
