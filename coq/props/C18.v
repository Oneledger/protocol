(* C18 — no transaction input can crash or halt the node.  Only property theorems here, and the audited
   stop-site table (trusted) the regenerated fact is checked against. *)
From Coq Require Import ZArith List Bool String.
Import ListNotations.
From OL Require Import theories.Crash proofs.CrashProofs gen.Facts_Crash gen.Facts_Wrapper.
Local Open Scope Z_scope.

(* the fee step (BasicFeeHandling: Signatures[0], Price.ToCoin, MultiplyInt64, Coin.Minus on the
   payer's balance, Coin.Plus on the fee pool) never stops the node on a transaction that passed
   the fee part of Validate — for every price, gas figure, balance, pool amount, signature count *)
Theorem C18_validated_fee_step_no_crash : forall x nsigners i guard,
  registered x (fee_cur x) = true -> (1 <= nsigners)%nat ->
  validate_fee x nsigners i = true -> fee_step guard x i <> Crash.
Proof.
  intros x nsigners i guard Hreg Hn [[Hc%Z.eqb_eq _]%andb_prop Hs%Nat.eqb_eq]%andb_prop.
  rewrite <- Hs in Hn. rewrite <- Hc in Hreg. rewrite (fee_step_debit_credit _ _ _ Hn Hreg).
  destruct (_ <? _); [discriminate|]. rewrite <- Hc. apply debit_credit_registered, Hreg.
Qed.
Print Assumptions C18_validated_fee_step_no_crash.

(* the deliverer validates (regenerated fact), hence DeliverTx's fee step never stops the node,
   for EVERY input, validated or not *)
Theorem C18_deliver_fee_no_crash : forall x nsigners i guard,
  registered x (fee_cur x) = true -> (1 <= nsigners)%nat ->
  deliver_fee deliverer_calls_validate guard x nsigners i <> Crash.
Proof.
  intros x nsigners i guard Hreg Hn. unfold deliver_fee.
  destruct (validate_fee x nsigners i) eqn:E; [|discriminate].
  exact (C18_validated_fee_step_no_crash x nsigners i guard Hreg Hn E).
Qed.
Print Assumptions C18_deliver_fee_no_crash.

(* a handler that checks Amount.IsValid before using a payload amount never stops the node in
   its debit/credit, for any amount (negative, huge), any currency name, any balances *)
Theorem C18_checked_amount_no_crash : forall reg cur v bal poolamt,
  debit_credit true reg cur v bal cur poolamt <> Crash.
Proof.
  intros. destruct (reg cur) eqn:E; [apply debit_credit_registered, E|].
  unfold debit_credit, amount_valid. rewrite E. discriminate.
Qed.

(* the guards are necessary — closed witnesses of what the code did before the fixes:
   (1) a deliverer that does not validate: a fee priced in an unregistered currency stops the
       node in the fee step (finding C18.deliver_unvalidated_crashes, fixed by d276709);
   (2) an empty signature list indexed by the fee step, again in a deliverer that does not validate —
       a validating one refuses it by the signature count (C18.deliver_no_signature, 5b9d413);
   (3) a handler that uses an amount in an unregistered currency without checking it
       (C18.undelegate_foreign_currency, 1d1d85c) *)
Definition x0 : feectx := {| fee_cur := 0 ; min_price := 1 ; registered := fun c => c =? 0 ;
                             payer_balance := fun _ => 100 ; pool := 5 |}.
Theorem C18_refuted_unvalidated_fee_currency :
  deliver_fee false true x0 1 {| nsigs := 1 ; price_cur := 7 ; price_val := 1 ; used := 10 ; gas_limit := 100 |} = Crash.
Proof. vm_compute. reflexivity. Qed.
Theorem C18_refuted_unguarded_empty_signatures :
  deliver_fee false false x0 1 {| nsigs := 0 ; price_cur := 0 ; price_val := 1 ; used := 10 ; gas_limit := 100 |} = Crash.
Proof. vm_compute. reflexivity. Qed.
Theorem C18_refuted_unchecked_amount :
  debit_credit false (fun c => c =? 0) 7 5 100 0 50 = Crash.
Proof. vm_compute. reflexivity. Qed.

Example C18_nonvacuous :
  validate_fee x0 1 {| nsigs := 1 ; price_cur := 0 ; price_val := 3 ; used := 10 ; gas_limit := 100 |} = true /\
  fee_step true x0 {| nsigs := 1 ; price_cur := 0 ; price_val := 3 ; used := 10 ; gas_limit := 100 |} = Done (70, 35) /\
  fee_step true x0 {| nsigs := 1 ; price_cur := 0 ; price_val := 30 ; used := 10 ; gas_limit := 100 |} = Refused.
Proof. vm_compute. repeat split. Qed.

(* tie to the source (regenerated on every run), from here on *)
Theorem C18_fact_deliverer_validates :
  deliverer_calls_validate = true /\ deliverer_validate_guards_handler = true /\ checker_calls_validate = true.
Proof. repeat split. Qed.

(* every explicit stop site (panic / logger.Fatal / os.Exit) of the consensus packages is
   classified.  AUDIT (trusted): classes assigned by reading each site; a new site is an open
   obligation.  Implicit stops (nil dereference, index out of range) cannot be inventoried
   syntactically: they are the target of the hostile-input runs of this check. *)
Definition crash_table : list (string * sclass) := [
  ("action/governance:CreateProposal.Validate#panic1", SValidateInvariant);
  ("action/governance:WithdrawFunds.Validate#panic1", SValidateInvariant);
  ("action/governance:fundProposalTx.Validate#panic1", SValidateInvariant);
  ("action/ons:RenewDomainTx.Validate#panic1", SValidateInvariant);
  ("action/ons:domainCreateTx.Validate#panic1", SValidateInvariant);
  ("action/ons:domainPurchaseTx.Validate#panic1", SValidateInvariant);
  ("action/ons:domainSaleTx.Validate#panic1", SValidateInvariant);
  ("action/rewards:withdrawTx.Validate#panic1", SValidateInvariant);
  ("action/transfer:sendPoolTx.Validate#panic1", SValidateInvariant);
  ("external_apps/bid/bid_action:CounterOfferTx.Validate#panic1", SValidateInvariant);
  ("external_apps/bid/bid_action:CreateBidTx.Validate#panic1", SValidateInvariant);
  ("app:App.blockBeginner#panic1", SHookStoreError);
  ("app:addMaturedAmountsToBalance#panic1", SHookStoreError);
  ("app:addMaturedAmountsToBalance#panic2", SHookStoreError);
  ("app:addMaturedAmountsToBalance#panic3", SHookStoreError);
  ("app:matureDelegationRewards#panic1", SHookStoreError);
  ("app:matureDelegationRewards#panic2", SHookStoreError);
  ("app:matureDelegationRewards#panic3", SHookStoreError);
  ("app:doEthTransitions#panic1", SHookStoreError);
  ("app:context.Close#panic1", SStorageInternal);
  ("chains/ethereum:ERC20LRContract.IsRedeemAvailable#panic1", SNodeLocalJob);
  ("chains/ethereum:ERC20LRContract.VerifyRedeem#panic1", SNodeLocalJob);
  ("chains/ethereum:ETHChainDriver.GetClient#panic1", SNodeLocalJob);
  ("chains/ethereum:ETHChainDriver.GetContract#panic1", SNodeLocalJob);
  ("chains/ethereum:ETHChainDriver.GetContract#panic2", SNodeLocalJob);
  ("data/balance:Coin.LessThanCoin#fatal1", SCoinArith);
  ("data/balance:Coin.LessThanEqualCoin#fatal1", SCoinArith);
  ("data/balance:Coin.Minus#fatal1", SCoinArith);
  ("data/balance:Coin.Plus#fatal1", SCoinArith);
  ("data/balance:Coin.Plus#fatal2", SCoinArith);
  ("data/balance:EthAccount.SubBalance#panic1", SEvmInternal);
  ("data/governance:Store.Get#panic1", SGenesisInvariant);
  ("event:FreezeForBroadcast#panic1", SNodeLocalJob);
  ("event:JobETHSignRedeem.DoMyJob#panic1", SNodeLocalJob);
  ("event:JobETHSignRedeem.DoMyJob#panic2", SNodeLocalJob);
  ("event:JobETHSignRedeem.DoMyJob#panic3", SNodeLocalJob);
  ("event:JobETHSignRedeem.DoMyJob#panic4", SNodeLocalJob);
  ("event:JobETHSignRedeem.DoMyJob#panic5", SNodeLocalJob);
  ("event:JobETHSignRedeem.DoMyJob#panic6", SNodeLocalJob);
  ("event:JobETHVerifyRedeem.DoMyJob#panic1", SNodeLocalJob);
  ("event:JobETHVerifyRedeem.DoMyJob#panic2", SNodeLocalJob);
  ("event:JobETHVerifyRedeem.DoMyJob#panic3", SNodeLocalJob);
  ("event:MakeAvailable#panic1", SNodeLocalJob);
  ("event:ProcessAllJobs#panic1", SNodeLocalJob);
  ("event:ReportBroadcastSuccess#panic1", SNodeLocalJob);
  ("event:ReserveTracker#panic1", SNodeLocalJob);
  ("event:init#panic1", SStartUp); ("event:init#panic2", SStartUp); ("event:init#panic3", SStartUp);
  ("event:init#panic4", SStartUp); ("event:init#panic5", SStartUp);
  ("identity:ValidatorStore.CheckMaliciousValidators#fatal1", SGenesisInvariant);
  ("identity:ValidatorStore.GetEndBlockUpdate#fatal1", SKnownC10);
  ("identity:ValidatorStore.GetEndBlockUpdate#fatal2", SKnownC10);
  ("identity:ValidatorStore.GetEndBlockUpdate#fatal3", SKnownC10);
  ("identity:ValidatorStore.GetEndBlockUpdate#fatal4", SKnownC10);
  ("identity:ValidatorStore.GetEndBlockUpdate#fatal5", SKnownC10);
  ("serialize:msgpackRegConc#panic1", SStartUp);
  ("storage:ChainState.Commit#panic1", SStorageInternal);
  ("storage:KeyValue.Close#panic1", SStorageInternal);
  ("storage:KeyValue.Delete#panic1", SStorageInternal);
  ("storage:KeyValue.Set#panic1", SStorageInternal);
  ("storage:KeyValue.empty#panic1", SStorageInternal);
  ("storage:KeyValue.list#panic1", SStorageInternal);
  ("storage:KeyValueSession.Commit#fatal1", SStorageInternal);
  ("storage:State.CommitTxSession#panic1", SStorageInternal);
  ("storage:cache.IterateRange#panic1", SStorageInternal);
  ("storage:cacheSafe.IterateRange#panic1", SStorageInternal);
  ("storage:cacheSession.IterateRange#panic1", SStorageInternal);
  ("storage:newKeyValue#panic1", SStartUp);
  ("storage:newKeyValue#panic2", SStartUp);
  ("storage:sessionCache.IterateRange#panic1", SStorageInternal);
  ("utils/transition:engine.Process#panic1", SNodeLocalJob);
  ("vm:Bloom.SetBytes#panic1", SEvmInternal);
  ("vm:CommitStateDB.GetBlockHash#panic1", SEvmInternal);
  ("vm:CommitStateDB.RevertToSnapshot#panic1", SEvmInternal);
  ("vm:CommitStateDB.SubRefund#panic1", SEvmInternal);
  ("vm:accessList.DeleteSlot#panic1", SEvmInternal);
  ("vm:stateObject.setNonce#panic1", SEvmInternal)
]%string.

Theorem C18_fact_crash_sites : unclassified crash_table crash_sites = [].
Proof. vm_compute. reflexivity. Qed.

Example C18_fact_crash_sites_nonvacuous :
  (60 <=? Z.of_nat (List.length crash_sites)) = true /\ unclassified [] crash_sites <> [].
Proof. split; [reflexivity|discriminate]. Qed.
