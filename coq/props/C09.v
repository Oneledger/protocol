(* C09 — the layered state store behaves like a transactional, versioned map.
   Only property theorems here; the lemmas they rest on are in proofs/StoreProofs.v *)
From stdpp Require Import gmap list.
From Coq Require Import ZArith.
From OL Require Import theories.Store theories.StoreSpec theories.StoreCheck proofs.StoreProofs
  gen.Facts_Consts.
Local Open Scope Z_scope.

(* tie to the source: the delete marker of the model is the constant in storage/const.go *)
Theorem C09_fact_tombstone : TOMB = tombstone_bytes.
Proof. vm_compute. reflexivity. Qed.

(* (1) refinement: on every operation sequence that never writes the delete marker itself as a
   value and stays below the block gas limit, every answer of the store (reads, existence
   checks, commit versions, versioned reads, reads after reopen) is the answer of the reference
   transactional map, from any related pair of states — in particular from the empty store. *)
Theorem C09_refinement : forall ops s p, R s p -> guarded s ops ->
  outputs s ops = spec_outputs p ops /\ R (final s ops) (spec_run p ops).2.
Proof. exact store_refines_spec. Qed.
Print Assumptions C09_refinement.

Theorem C09_refinement_from_empty : forall r ops, guarded (init r) ops ->
  outputs (init r) ops = spec_outputs (spec_init r) ops.
Proof. intros r ops H. exact (proj1 (store_refines_spec ops _ _ (R_init r) H)). Qed.
Print Assumptions C09_refinement_from_empty.

(* the boolean guard used by the harness implies the guard of the theorem *)
Theorem C09_guard_sound : forall ops s, guardedb s ops = true -> guarded s ops.
Proof. exact guardedb_sound. Qed.

(* the full statement (no guard on values) is false of the faithful model: writing the marker
   as a value reads back as absent.  Known finding C09.tombstone_alias. *)
Theorem C09_refuted_tombstone_alias : exists r ops,
  outputs (init r) ops <> spec_outputs (spec_init r) ops.
Proof.
  exists {| recent := 0; every := 0; cycles := 0 |}, [Set_ 1%N TOMB; Get 1%N].
  vm_compute. discriminate.
Qed.

(* (2) a discarded session leaves no trace (gas-free semantics; see C09_gas_erasure) *)
Theorem C09_discard : forall p s, gas s = None -> forallb is_data p = true ->
  final s (BeginTx :: p ++ [DiscardTx]) = with_sess s None.
Proof.
  intros p s Hn Hp. rewrite final_cons, final_app. cbn [step snd].
  rewrite (session_run p s oempty Hn Hp). reflexivity.
Qed.
Print Assumptions C09_discard.

(* (3) reads, existence checks and versioned reads do not influence the state — in particular
   not the sequence of tree calls [wlog] the root hash is a function of *)
Theorem C09_reads_invisible : forall ops s, gas s = None -> no_gas_ops ops ->
  final s ops = final s (filter (fun o => negb (is_read o)) ops).
Proof. exact reads_invisible. Qed.
Print Assumptions C09_reads_invisible.

(* (3') reads AND discarded sessions together, for whole histories: after any operation sequence
   and after the same sequence without its reads and without the sessions that end up discarded
   ([strip], the sequence the harness runs on a second real store), everything but the open
   session is identical — in particular the tree-call log [wlog] INCLUDING ITS ORDER and the
   block cache including its first-write order, so the root hash cannot depend on them *)
Theorem C09_discarded_sessions_and_reads_invisible : forall ops s,
  gas s = None -> sess s = None -> no_gas_ops ops ->
  with_sess (final s ops) None = with_sess (final s (strip ops)) None.
Proof. intros ops s Hn Hs Hf. exact (strip_sim ops None s s Hn Hf Hs (eq_sym (with_sess_None s Hs))). Qed.
Print Assumptions C09_discarded_sessions_and_reads_invisible.

Theorem C09_tree_calls_independent_of_discarded_sessions : forall ops s,
  gas s = None -> sess s = None -> no_gas_ops ops ->
  let a := final s ops in let b := final s (strip ops) in
  wlog a = wlog b /\ okeys (cache a) = okeys (cache b) /\ ovals (cache a) = ovals (cache b) /\
  tree a = tree b /\ saved a = saved b /\ version a = version b.
Proof.
  intros ops s Hn Hs Hf a b. subst a b.
  injection (C09_discarded_sessions_and_reads_invisible ops s Hn Hs Hf) as -> _ -> -> -> _ _ ->.
  repeat split; reflexivity.
Qed.
Print Assumptions C09_tree_calls_independent_of_discarded_sessions.

(* the call list the harness feeds to its bare-tree twin is the model's tree-call log *)
Theorem C09_tree_calls_are_the_log : forall ops s,
  map tcall_of (wlog (final s ops)) = map tcall_of (wlog s) ++ filter not_reopen (tree_calls s ops).
Proof. exact tree_calls_are_wlog. Qed.
Print Assumptions C09_tree_calls_are_the_log.

(* the order matters to the model: the same surviving writes in another first-write order are
   a different tree-call log (what a stale order index of a discarded session would produce) *)
Example C09_tree_calls_order_sensitive :
  let r := {| recent := 0; every := 0; cycles := 0 |} in
  tree_calls (init r) [BeginTx; Set_ 3%N [1%N]; DiscardTx;
                       BeginTx; Set_ 1%N [1%N]; Set_ 2%N [1%N]; Set_ 3%N [1%N]; CommitTx; BlockCommit]
  = [CSet 1%N [1%N]; CSet 2%N [1%N]; CSet 3%N [1%N]; CSave] /\
  tree_calls (init r) [BeginTx; Set_ 3%N [1%N]; Set_ 1%N [1%N]; Set_ 2%N [1%N]; CommitTx; BlockCommit]
  = [CSet 3%N [1%N]; CSet 1%N [1%N]; CSet 2%N [1%N]; CSave].
Proof. vm_compute. split; reflexivity. Qed.

(* below the gas limit the metered store is the gas-free store (outputs and all state but the
   counter), so (2) and (3) carry over to metered runs *)
Theorem C09_gas_erasure : forall ops s s0, gas_guarded s ops -> erase s = erase s0 ->
  gas s0 = None ->
  outputs s ops = outputs s0 (map erase_op ops) /\
  erase (final s ops) = erase (final s0 (map erase_op ops)).
Proof. exact run_erase. Qed.
Print Assumptions C09_gas_erasure.

(* (4) versions: a step keeps a saved version or drops it (rotation), it never changes it *)
Theorem C09_saved_immutable : forall s o v t, versions_below s ->
  saved (step s o).2 !! v = Some t -> v <= version s -> saved s !! v = Some t.
Proof. intros s o v t _ H Hle. apply (saved_shrinks s o v t); [lia|exact H]. Qed.

Theorem C09_commit_then_read : forall s k, wf (cache s) ->
  let s' := (step s BlockCommit).2 in
  version s' = version s + 1 /\
  tree s' = apply_layer (abs_ov (cache s)) (tree s) /\
  (saved s' !! version s' = Some (tree s') ->
   (step s' (GetVersioned (version s') k)).1 = OVal (tree s' !! k) /\
   tree (step s' Reopen).2 = tree s').
Proof.
  intros s k Hwf s'. destruct (commit_tree s Hwf) as [Ev Et]. split; [exact Ev|]. split; [exact Et|].
  intros Hs. cbn [step fst snd do_reopen tree]. rewrite Hs. split; reflexivity.
Qed.

Theorem C09_latest_survives_rotation : forall r lastv sv t,
  0 <= recent r -> 0 <= every r -> 0 <= cycles r -> 0 <= lastv ->
  rotate r lastv (<[lastv + 1 := t]> sv) !! (lastv + 1) = Some t.
Proof. exact rotate_latest. Qed.
Print Assumptions C09_latest_survives_rotation.

(* (4') the retained-version set: a commit changes the saved versions only at the new version
   and at the (at most two) versions the rotation rule names; every other version is retained *)
Theorem C09_commit_retains : forall s v,
  v <> version s + 1 -> v <> version s - recent (rot s) ->
  v <> version s - recent (rot s) - cycles (rot s) * every (rot s) ->
  saved (step s BlockCommit).2 !! v = saved s !! v.
Proof.
  intros s v H0 H1 H2. rewrite commit_saved, rotate_retains by assumption. apply lookup_insert_ne. congruence.
Qed.
Print Assumptions C09_commit_retains.

(* every versioned read (retained or released version) answers the same before and after any run
   without a block commit — reads, writes, sessions, fresh states and REOPEN — and the version
   number is unchanged; a reopen returns the last commit as the working tree *)
Theorem C09_versioned_reads_stable : forall ops s v k, Forall (fun o => o <> BlockCommit) ops ->
  (step (final s ops) (GetVersioned v k)).1 = (step s (GetVersioned v k)).1 /\
  version (final s ops) = version s.
Proof. intros ops s v k Hf. destruct (run_versions ops s Hf) as [E1 E2]. cbn [step fst]. rewrite E1. auto. Qed.
Print Assumptions C09_versioned_reads_stable.

Theorem C09_reopen_keeps_versions : forall s v k,
  (step (step s Reopen).2 (GetVersioned v k)).1 = (step s (GetVersioned v k)).1 /\
  saved (step s Reopen).2 = saved s /\ version (step s Reopen).2 = version s /\
  tree (step s Reopen).2 = default ∅ (saved s !! version s).
Proof. intros s v k. repeat split; reflexivity. Qed.
Print Assumptions C09_reopen_keeps_versions.

(* (5) a write that is refused (block gas exhausted) has NO effect: the state, what the next block
   commit persists and its tree calls are those without the write; an accepted block-level write
   is in the block cache.  So a commit persists exactly the Sets that returned success. *)
Theorem C09_refused_set_no_effect : forall s k v s', step s (Set_ k v) = (OErr, s') -> s' = s.
Proof. intros s k v s' E. destruct (set_cases s k v) as [E'|[E' _]]; rewrite E in E'; [congruence|discriminate]. Qed.
Print Assumptions C09_refused_set_no_effect.
Theorem C09_refused_set_not_committed : forall s k v, (step s (Set_ k v)).1 = OErr ->
  step (step s (Set_ k v)).2 BlockCommit = step s BlockCommit.
Proof. intros s k v E. destruct (set_cases s k v) as [->|[E' _]]; [reflexivity|congruence]. Qed.
Theorem C09_accepted_set_in_cache : forall s k v, sess s = None -> (step s (Set_ k v)).1 = OUnit ->
  oget (cache (step s (Set_ k v)).2) k = Some v.
Proof.
  intros s k v Hs E. destruct (set_cases s k v) as [E'|[_ E']]; [rewrite E' in E; discriminate|].
  apply (f_equal cache) in E'. unfold put in E'. rewrite Hs in E'.
  cbn [erase with_gas with_cache cache] in E'. rewrite E'. apply lookup_insert.
Qed.
(* non-vacuity: limit 220 = exactly one 1-byte Set; the second Set is refused and not persisted *)
Example C09_refused_set_example :
  outputs (init {| recent := 1; every := 0; cycles := 0 |})
    [Fresh (Some 220); Set_ 0%N [1%N]; Set_ 1%N [2%N]; BlockCommit; GetVersioned 1 0%N; GetVersioned 1 1%N]
  = [OUnit; OUnit; OErr; OVersion 1; OVal (Some [1%N]); OVal None].
Proof. vm_compute. reflexivity. Qed.

(* non-vacuity under the node default (recent 10, every 100, cycles 10): three commits, a reopen;
   versions 1 and 2 (older than the last commit) still read their old values — a store that on
   reopen loaded only its latest version would answer absent for them *)
Example C09_versions_after_reopen_node_default :
  outputs (init {| recent := 10; every := 100; cycles := 10 |})
    [Set_ 0%N [1%N]; BlockCommit; Set_ 0%N [2%N]; BlockCommit; Set_ 0%N [3%N]; BlockCommit; Reopen;
     GetVersioned 1 0%N; GetVersioned 2 0%N; GetVersioned 3 0%N; Get 0%N]
  = [OUnit; OVersion 1; OUnit; OVersion 2; OUnit; OVersion 3; OUnit;
     OVal (Some [1%N]); OVal (Some [2%N]); OVal (Some [3%N]); OVal (Some [3%N])].
Proof. vm_compute. reflexivity. Qed.

(* non-vacuity: a concrete non-trivial sequence satisfies the guard and exercises every layer *)
Example C09_guard_nonvacuous :
  guardedb (init {| recent := 1; every := 2; cycles := 1 |})
    [Fresh (Some 100000); Set_ 1%N [7%N]; BeginTx; Delete 1%N; Get 1%N; CommitTx; Exists_ 1%N;
     BlockCommit; GetVersioned 1 1%N; Reopen; Get 1%N] = true.
Proof. vm_compute. reflexivity. Qed.
