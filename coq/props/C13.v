(* C13 — block rewards stay within the pulled amount and the yearly schedule. *)
From Coq Require Import ZArith List Bool Lia.
From OL Require Import theories.Rewards theories.RewardsCheck proofs.RewardsProofs gen.Facts_Consts.
Import ListNotations.
Local Open Scope Z_scope.

(* tie to the source: the commission constants of data/network_delegation/init.go (regenerated on
   every run) are percentages *)
Theorem C13_fact_consts : consts_ok K.
Proof. vm_compute. intuition discriminate. Qed.

(* (a) the split.  For ALL vote lists with distinct addresses and non-negative powers, all
   delegation-pool sizes (0 included), all delegator tables whose amounts are non-negative and
   sum to at most the pool balance (C12), every proposer and every non-negative pulled amount R:
   whatever handleBlockRewards credits to validators and delegators together is at most R, the
   amount reported to ConsumeRewards is at most R, and no credit is negative. *)
Theorem C13_split_bounded : forall k votes dp delegs proposer R out,
  consts_ok k -> 0 <= R -> 0 <= dp ->
  Forall (fun v => 0 <= v_power v) votes -> NoDup (map v_addr votes) ->
  Forall (fun d => 0 <= snd d) delegs -> zsum (map snd delegs) <= dp ->
  split k votes dp delegs proposer R = Some out ->
  zsum (map snd (so_vals out)) + zsum (map snd (so_delegs out)) <= R /\
  so_consumed out <= R /\
  Forall (fun c => 0 <= snd c) (so_vals out) /\
  Forall (fun c => 0 <= snd c) (so_delegs out).
Proof.
  intros k votes dp delegs proposer R out Hk HR Hdp Hp Hnd Hd Hs H.
  destruct (split_bounded _ _ _ _ _ _ _ Hk HR Hdp Hp Hnd Hd Hs H) as [[H1 H2] H3].
  exact (conj (Z.le_trans _ _ _ H1 H2) (conj H2 H3)).
Qed.
Print Assumptions C13_split_bounded.

(* with the constants of the current source *)
Theorem C13_split_bounded_current : forall votes dp delegs proposer R out,
  0 <= R -> 0 <= dp ->
  Forall (fun v => 0 <= v_power v) votes -> NoDup (map v_addr votes) ->
  Forall (fun d => 0 <= snd d) delegs -> zsum (map snd delegs) <= dp ->
  split K votes dp delegs proposer R = Some out ->
  zsum (map snd (so_vals out)) + zsum (map snd (so_delegs out)) <= R.
Proof.
  intros votes dp delegs proposer R out HR Hdp Hp Hnd Hd Hs H.
  exact (proj1 (C13_split_bounded K _ _ _ _ _ _ C13_fact_consts HR Hdp Hp Hnd Hd Hs H)).
Qed.
Print Assumptions C13_split_bounded_current.

(* non-vacuity: a concrete block with an absent signer, a pool and two delegators *)
Example C13_split_nonvacuous :
  split K [mkVote 1 3000 true true; mkVote 2 1000 false true; mkVote 3 1 true true]
        (7 * UNIT) [(10, 3 * UNIT); (11, 4 * UNIT)] 3 (1000000007)
  = Some (mkSplit [(1, 748764451); (3, 336912)] [(10, 561377); (11, 748502)] 750411243).
Proof. vm_compute. reflexivity. Qed.

(* the hypothesis "distinct addresses" is necessary: the power map keeps the LAST power of a
   repeated address while the total counts both (Tendermint never repeats an address) *)
Theorem C13_split_distinct_needed : exists votes out,
  split K votes 0 [] 0 100 = Some out /\ 100 < zsum (map snd (so_vals out)).
Proof.
  exists [mkVote 1 1 true true; mkVote 1 9 true true]. eexists. split; [vm_compute; reflexivity|].
  vm_compute. reflexivity.
Qed.

(* the directed whole-app witness of corpus/C13.json (delegate 1000 OLT, undelegate 900 OLT, two
   validators of power 1000): with the ACTIVE table (100 OLT left in a pool of 100 OLT) everything
   credited is within the pulled amount ... *)
Example C13_split_directed_witness :
  exists out,
    split K [mkVote 1 1000 true true; mkVote 2 1000 true true] (100 * UNIT) [(3, 100 * UNIT)] 1
          38356164383561643835 = Some out /\
    zsum (map snd (so_vals out)) + zsum (map snd (so_delegs out)) = 38338769297673407260 /\
    so_delegs out = [(3, 1369863013698630137)].
Proof. eexists. split; [vm_compute; reflexivity|split; reflexivity]. Qed.

(* ... and the hypothesis "the table sums to at most the pool" of C13_split_bounded is necessary:
   sharing by the PENDING amount (900 OLT, no longer in the pool) — what a delegation store that
   iterates the wrong list does (seeded/C13_3) — credits 9 times the delegators' share, more than
   was pulled.  The check's monitor compares exactly this sum, taken from the implementation's
   records (all delegRwz_balance deltas), with the pulled amount. *)
Theorem C13_split_table_le_pool_needed : exists out,
  split K [mkVote 1 1000 true true; mkVote 2 1000 true true] (100 * UNIT) [(3, 900 * UNIT)] 1
        38356164383561643835 = Some out /\
  38356164383561643835 < zsum (map snd (so_vals out)) + zsum (map snd (so_delegs out)) /\
  so_delegs out = [(3, 12328767123287671233)].
Proof. eexists. split; [vm_compute; reflexivity|split; reflexivity]. Qed.

(* (b) the calculator (behaviour of /repo since 0cc9fdb, 6bfa5cf, 47bb3a6).
   [cache_inv]: a warm cache holds the burnout rate or at most what its year had left.  From such
   a cache (a cold cache is one) — or at the first block of a cycle from ANY cache — every
   successful PullRewards is within the bound the property states (<= the year's supply minus
   what was distributed until the last cycle, i.e. what was left when the cycle began; or
   <= min(burnout rate, pool) once the schedule is over) and re-establishes the invariant. *)
Theorem C13_pull_bounded : forall o bt ys h pool c a c',
  cache_inv o ys c \/ first_in_cycle o h = true ->
  pull o bt ys h pool c = (COk a, c') ->
  pull_bound o ys pool c' a = true /\ cache_inv o ys c'.
Proof. intros o bt ys h pool c a c' Hinv H. exact (pull_spec _ _ _ _ _ _ _ _ Hinv H). Qed.
Print Assumptions C13_pull_bounded.

(* FULL, run level: for all options, header times, year records, pool balances, consumed amounts
   and run lengths, from a cold cache (node start) or from any cache satisfying the invariant,
   at any height: EVERY successful pull of the run is within the bound.  A failed calculation
   (overdrawn year) pulls nothing and leaves a cold cache, so it does not interrupt the induction
   any more (before 47bb3a6 it did: findings/C13_overdrawn_year.json). *)
Theorem C13_pull_bounded_run : forall steps o bt ys c h,
  cache_inv o ys c \/ first_in_cycle o h = true -> all_bounded o bt ys c h steps.
Proof.
  induction steps as [|[pool x] r IH]; intros o bt ys c h Hinv; cbn [all_bounded]; [exact I|].
  destruct (pull o bt ys h pool c) as [[a|] c'] eqn:Ep; apply (pull_spec _ _ _ _ _ _ _ _ Hinv) in Ep;
    cbv beta iota in Ep.
  - split; [apply Ep|]. apply IH, pull_hyp_next, Ep.
  - subst c'. apply IH. left. apply cache_inv_cold.
Qed.
Print Assumptions C13_pull_bounded_run.

Theorem C13_pull_bounded_from_start : forall steps o bt ys h, all_bounded o bt ys cold h steps.
Proof. intros. apply C13_pull_bounded_run. left. exact (cache_inv_cold o ys). Qed.

(* FULL: the pulled amount is never negative (no guard on the cycle duration any more, 0cc9fdb);
   remaining hypotheses: sane options, the forecast product secsToClose*cycle inside int64, and a
   non-negative cached amount — which the conclusion re-establishes, so it holds along every run
   from a cold cache *)
Theorem C13_pull_nonneg : forall o bt ys h pool c a c',
  0 < o_cycle o -> 0 <= o_window o -> 0 <= o_burnout o -> 0 <= pool ->
  Forall (fun yr => 0 <= dur_secs (y_close yr - snd (secs_per_cycle o bt h)) * o_cycle o < 2^63) ys ->
  (warm c = true -> 0 <= c_amt c) ->
  pull o bt ys h pool c = (COk a, c') -> 0 <= a /\ 0 <= c_amt c'.
Proof.
  intros o bt ys h pool c a c' Hc Hw Hb Hp Hall. apply pull_nonneg; try assumption.
  apply (Forall_impl _ (fun yr H _ => proj2 H) Hall).
Qed.
Print Assumptions C13_pull_nonneg.

(* FULL: restart independence.  h0 = first block of a cycle, c0 = ANY cache the running node had
   there (burnout cached or not — 6bfa5cf), the calculation at h0 succeeded or failed (47bb3a6):
   at EVERY block h of that cycle, for all year records that differ from those at h0 only in the
   distributed totals, the running node and a restarted node (cold cache) return the same result
   and are left with the same cache. *)
Theorem C13_restart_independent : forall o bt ys ys' h0 h c0,
  0 < o_cycle o -> 1 <= h0 -> first_in_cycle o h0 = true -> h0 <= h -> cycle_no o h = cycle_no o h0 ->
  sched ys' = sched ys ->
  let res := calculate o bt ys h0 c0 in
  calculate o bt ys' h (snd res) = res /\ calculate o bt ys' h cold = res.
Proof. intros o bt ys ys' h0 h c0 HC _ Hf _. exact (restart_independent o bt ys ys' h0 h c0 HC Hf). Qed.
Print Assumptions C13_restart_independent.

(* (c) cumulative records: for ALL operation sequences (AddMaturedBalance with non-negative
   amounts, WithdrawRewards with any amount, any addresses) from the empty store: the matured
   balance is never negative, balance + withdrawn = total matured, withdrawn = what successful
   withdrawals paid, hence never more than has matured; a single successful withdrawal never
   exceeds the balance it is taken from. *)
Theorem C13_withdraw_bounded : forall ops, Forall (fun op => matured_ok op = true) ops -> forall v,
  let s := crun [] ops in
  0 <= fst (cget s v) /\
  fst (cget s v) + snd (cget s v) = matured_of ops v /\
  snd (cget s v) = paid_of [] ops v /\
  paid_of [] ops v <= matured_of ops v.
Proof. intros ops Hok v. exact (crun_inv ops v Hok [] (Z.le_refl 0)). Qed.
Print Assumptions C13_withdraw_bounded.

Theorem C13_withdraw_step : forall s v a, snd (cstep s (Withdraw v a)) = true ->
  a <= fst (cget s v) /\
  fst (cget (fst (cstep s (Withdraw v a))) v) = fst (cget s v) - a /\
  snd (cget (fst (cstep s (Withdraw v a))) v) = snd (cget s v) + a.
Proof.
  intros s v a. cbn [cstep]. destruct (Z.ltb_spec (fst (cget s v) - a) 0); [discriminate|]. intros _.
  cbn [fst snd]. rewrite cget_cset, Z.eqb_refl. cbn [fst snd]. lia.
Qed.

Example C13_withdraw_nonvacuous :
  let ops := [AddMatured 1 10; Withdraw 1 4; Withdraw 1 7; AddMatured 2 5; Withdraw 1 6] in
  forallb matured_ok ops = true /\ cget (crun [] ops) 1 = (0, 10) /\ paid_of [] ops 1 = 10.
Proof. vm_compute. auto. Qed.

(* state export / import (olfullnode save_state -> genesis -> InitChain: RewardStore.dumpState /
   loadState).  The chunks are copied as they are; what decides which chunk is credited and which
   matures on the relaunched chain is the single interval record {index, 2} that the export
   writes.  For ALL export versions V >= 0 — multiples of the reward interval included — of a chain
   that started from an ordinary genesis:
   (1) the record names the chunk that was open (credited) at V;
   (2) on the relaunched chain every credit goes to a chunk beyond it: exported chunks are final;
   (3) the exporter's last maturity block matured the chunk two below the open one, and
   (4) the k-th maturity block of the relaunched chain matures the chunk k-2 above it:
       the successor of the exporter's frontier first, then one by one.
   So across the relaunch every chunk matures exactly once and in order: no reward is added to a
   matured balance twice. *)
Theorem C13_export_open_chunk : forall o V, 0 < o_interval o -> 0 <= V ->
  dump_interval o [] V = mkIvl (V / o_interval o + 1) 2 /\
  iv_index (dump_interval o [] V) = chunk_idx o [] V.
Proof. intros o V Hi HV. unfold dump_interval. rewrite chunk_idx_default by assumption. auto. Qed.
Print Assumptions C13_export_open_chunk.

Theorem C13_import_credits_fresh_chunks : forall o V h, 0 < o_interval o -> 0 <= V -> 2 <= h ->
  chunk_idx o [] V < chunk_idx o (load_intervals (dump_interval o [] V)) h.
Proof.
  intros o V h Hi _ Hh. unfold dump_interval. rewrite chunk_idx_imported by assumption.
  assert (0 <= (h - 2) / o_interval o) by (apply Z.div_pos; lia). lia.
Qed.

Theorem C13_export_frontier : forall o V, 0 < o_interval o -> 0 <= V ->
  matured_idx o [] (last_maturity_height o V) = chunk_idx o [] V - 2.
Proof.
  intros o V Hi HV. unfold matured_idx, last_maturity_height.
  assert (0 <= V / o_interval o) by (apply Z.div_pos; lia).
  rewrite !chunk_idx_default by (try assumption; nia).
  rewrite Z.div_mul by lia. reflexivity.
Qed.

Theorem C13_import_matures_exactly_once : forall o V k, 2 <= o_interval o -> 0 <= V -> 1 <= k ->
  matured_idx o (load_intervals (dump_interval o [] V)) (k * o_interval o) = chunk_idx o [] V + k - 2.
Proof.
  intros o V k Hi _ Hk. unfold matured_idx, dump_interval. rewrite chunk_idx_imported by nia.
  assert ((k * o_interval o - 2) / o_interval o = k - 1) as ->; [|lia].
  symmetry. apply (Z.div_unique _ _ _ (o_interval o - 2)); [lia|ring].
Qed.
Print Assumptions C13_import_matures_exactly_once.

Theorem C13_import_matures_exactly_once_interval_1 : forall o V h, o_interval o = 1 -> 0 <= V -> 2 <= h ->
  matured_idx o (load_intervals (dump_interval o [] V)) h = chunk_idx o [] V + h - 3.
Proof.
  intros o V h Hi _ Hh. unfold matured_idx, dump_interval.
  rewrite chunk_idx_imported by lia. rewrite Hi, Z.div_1_r. lia.
Qed.

(* the directed witness of corpus/C13.json: interval 5, export at V = 10 (a maturity block).  The
   exporter matured chunk 1 at height 10 and has chunk 3 open; the record is {3, 2}; the relaunched
   chain credits chunk 4 from height 2 on and matures chunk 2 at height 5, chunk 3 at height 10.
   (With the record {2, 2} — what rounding the index up instead of floor+1 gives at a multiple of
   the interval, seeded/C13_4 — height 5 would mature chunk 1 a second time.) *)
Example C13_export_at_multiple_of_interval :
  let o := mkOpts 100 1728 86400 [70000000000000000000000000] 5000000000000000000 5 in
  dump_interval o [] 10 = mkIvl 3 2 /\
  matured_idx o [] 10 = 1 /\
  chunk_idx o (load_intervals (dump_interval o [] 10)) 2 = 4 /\
  matured_idx o (load_intervals (dump_interval o [] 10)) 5 = 2 /\
  matured_idx o (load_intervals (dump_interval o [] 10)) 10 = 3 /\
  matured_idx o (load_intervals (mkIvl 2 2)) 5 = 1.
Proof. vm_compute. auto 10. Qed.

(* the WITHDRAW_REWARD transaction on the application path (CheckTx and DeliverTx both run
   Validate).  A negative amount (45cfd0d) and an amount that does not fit int64 (ed95e98) are
   refused and leave both records unchanged.  Over ALL amounts: the transaction is either refused
   without any change, or it moves exactly a = value * 10^18 from the matured balance to the
   withdrawn counter, with 0 <= a <= balance and a <= pool. *)
Theorem C13_withdraw_tx_invalid_refused : forall value bal wd pool, value < 0 \/ 2^63 <= value ->
  withdraw_tx value bal wd pool = (false, bal, wd).
Proof.
  intros value bal wd pool H. unfold withdraw_tx.
  replace (withdraw_amount_ok value) with false; [reflexivity|]. symmetry. apply andb_false_iff.
  destruct H; [left; apply Z.leb_gt|right; apply Z.ltb_ge]; assumption.
Qed.
Print Assumptions C13_withdraw_tx_invalid_refused.

Theorem C13_withdraw_tx_total : forall value bal wd pool ok bal' wd',
  withdraw_tx value bal wd pool = (ok, bal', wd') ->
  (ok = false /\ bal' = bal /\ wd' = wd) \/
  (ok = true /\ let a := value * UNIT in 0 <= a <= bal /\ a <= pool /\ bal' = bal - a /\ wd' = wd + a).
Proof.
  intros value bal wd pool ok bal' wd'. unfold withdraw_tx.
  destruct (withdraw_amount_ok value) eqn:Hok; cbn [negb].
  2:{ intros [= <- <- <-]. auto. }
  apply andb_prop in Hok as [H1%Z.leb_le H2%Z.ltb_lt].
  rewrite wrap64_small by (split; assumption).
  destruct (_ || _) eqn:Ho; intros [= <- <- <-]; [auto|].
  apply orb_false_elim in Ho as [H3%Z.ltb_ge H4%Z.ltb_ge].
  pose proof (Z.mul_nonneg_nonneg value UNIT H1 ltac:(discriminate)). right. cbn zeta. split; [reflexivity|lia].
Qed.
Print Assumptions C13_withdraw_tx_total.

(* the former accepted inputs (corpus/C13.json withdraw_values) *)
Example C13_withdraw_minus2_refused :
  withdraw_tx (-2) 153424657534246575340 0 1000000000000000000000000 = (false, 153424657534246575340, 0) /\
  withdraw_tx 1 153424657534246575340 0 1000000000000000000000000
    = (true, 152424657534246575340, 1000000000000000000).
Proof. vm_compute. auto. Qed.

(* fixed ed95e98: 2^64 - 2 used to pass IsValid and arrive in runWithdraw as -2 (a deposit:
   balance 190780821917808219175 -> 192780821917808219175, withdrawn 1e18 -> -1e18) *)
Example C13_withdraw_tx_int64_wrap_refused :
  withdraw_tx (2^64 - 2) 190780821917808219175 1000000000000000000 999999000000000000000000
    = (false, 190780821917808219175, 1000000000000000000) /\
  withdraw_tx (2^63) 190780821917808219175 1000000000000000000 999999000000000000000000
    = (false, 190780821917808219175, 1000000000000000000) /\
  withdraw_tx (2^64 + 1) 190780821917808219175 1000000000000000000 999999000000000000000000
    = (false, 190780821917808219175, 1000000000000000000).
Proof. vm_compute. auto. Qed.

(* the inputs of the former findings (findings/C13_*.json, all repaired), with the observations of
   the real code recorded after the repairs: the model agrees with them and no monitor fires *)
Definition finding_pcases : list pcase := [
mkPcase (mkOpts 2 30 86400 [0x39e7139a8c08fa06000000] 0x4563918244f40000 5)
 [0x16345785d8a00000; 0x16345785de95e100; 0x16345785e48bc200; 0x16345785ea81a300]
 [0x16a4615906430000]
 [mkPstep 1 false 0xd3c21bcecceda1000000 0x1ce109a3198821cd5 true 0x1ce109a3198821cd5 true 0x1ce109a3198821cd5 [(0x1ce109a3198821cd5, 0)];
  mkPstep 2 false 0xd3c21bcecceda1000000 0x1ce109a3198821cd5 true 0x1ce109a3198821cd5 true 0x1ce109a3198821cd5 [(0x39c213463310439aa, 0x39c213463310439aa)];
  mkPstep 3 false 0xd3c21bcecceda1000000 0xf66f325182a1660 true 0xf66f325182a1660 true 0xf66f325182a1660 [(0x3ab882788492e500a, 0x39c213463310439aa)];
  mkPstep 4 false 0xd3c21bcecceda1000000 0xf66f325182a1660 true 0xf66f325182a1660 true 0xf66f325182a1660 [(0x3baef1aad6158666a, 0x3baef1aad6158666a)]];
mkPcase (mkOpts 2 30 86400 [0x39e7139a8c08fa06000000] 0x4563918244f40000 5)
 [0x16345785d8a00000; 0x1634578956b1d600; 0x16906da021340000; 0x16906da39f45d600; 0x16906da71d57ac00; 0x16906daa9b698200]
 [0x16a4615906430000]
 [mkPstep 1 false 0xd3c21bcecceda1000000 0x1ce109a3198821cd5 true 0x1ce109a3198821cd5 true 0x1ce109a3198821cd5 [(0x1ce109a3198821cd5, 0)];
  mkPstep 2 false 0xd3c21bcecceda1000000 0x1ce109a3198821cd5 true 0x1ce109a3198821cd5 true 0x1ce109a3198821cd5 [(0x39c213463310439aa, 0x39c213463310439aa)];
  mkPstep 3 false 0xd3c21bcecceda1000000 0x4563918244f40000 true 0x4563918244f40000 true 0x4563918244f40000 [(0x39c213463310439aa, 0x39c213463310439aa)];
  mkPstep 4 false 0xd3c21bcecceda1000000 0x4563918244f40000 true 0x4563918244f40000 true 0x4563918244f40000 [(0x39c213463310439aa, 0x39c213463310439aa)];
  mkPstep 5 false 0xd3c21bcecceda1000000 0xa22aee9fe8a35b900 true 0xa22aee9fe8a35b900 true 0xa22aee9fe8a35b900 [(0xdbed01e61bb39f2aa, 0x39c213463310439aa)];
  mkPstep 6 false 0xd3c21bcecceda1000000 0xa22aee9fe8a35b900 true 0xa22aee9fe8a35b900 true 0xa22aee9fe8a35b900 [(0x17e17f0860456fabaa, 0x17e17f0860456fabaa)]];
mkPcase (mkOpts 2 30 86400 [0x39e7139a8c08fa06000000] 0x4563918244f40000 5)
 [0x16345785d8a00000; 0x1634578956b1d600; 0x1671bb975e580000; 0x1671bb9adc69d600; 0x1671bb9e5a7bac00; 0x1671bba1d88d8200]
 [0x16a4615906430000]
 [mkPstep 1 false 0xd3c21bcecceda1000000 0x1ce109a3198821cd5 true 0x1ce109a3198821cd5 true 0x1ce109a3198821cd5 [(0x1ce109a3198821cd5, 0)];
  mkPstep 2 false 0xd3c21bcecceda1000000 0x1ce109a3198821cd5 true 0x1ce109a3198821cd5 true 0x1ce109a3198821cd5 [(0x39c213463310439aa, 0x39c213463310439aa)];
  mkPstep 3 false 0xd3c21bcecceda1000000 0x39e70ffe6ad496d4fbc656 true 0x39e70ffe6ad496d4fbc656 true 0x39e70ffe6ad496d4fbc656 [(0x39e7139a8c08fa06000000, 0x39c213463310439aa)];
  mkPstep 4 false 0xd3c21bcecceda1000000 0x39e70ffe6ad496d4fbc656 true 0x39e70ffe6ad496d4fbc656 true 0x39e70ffe6ad496d4fbc656 [(0x73ce2398f6dd90dafbc656, 0x73ce2398f6dd90dafbc656)];
  mkPstep 5 false 0xd3c21bcecceda1000000 0 false 0 false 0 [(0x73ce2398f6dd90dafbc656, 0x73ce2398f6dd90dafbc656)];
  mkPstep 6 false 0xd3c21bcecceda1000000 0 false 0 false 0 [(0x73ce2398f6dd90dafbc656, 0x73ce2398f6dd90dafbc656)]]].

Example C13_former_witnesses_hold : check_pcases 0 finding_pcases = [].
Proof. vm_compute. reflexivity. Qed.

Definition wo : opts := mkOpts 2 30 86400 [70000000000000000000000000] 5000000000000000000 5.
Definition wclose : Z := 1631536000000000000.

(* fixed 0cc9fdb: three blocks within 0.2 s, cycle 2: the forecast divides by one second, not by
   zero; the pulled amount is positive *)
Example C13_zero_length_cycle_fixed :
  pull wo (bt_list [1600000000000000000; 1600000000100000000; 1600000000200000000])
       [mkYear wclose 66590563165905631658 66590563165905631658] 3 1000000000000000000000000 cold
  = (COk 1109841698838156896, mkCache 0 2 false 1109841698838156896).
Proof. vm_compute. reflexivity. Qed.

(* fixed 6bfa5cf: a cache that recorded burnout after a 300-day cycle is recalculated at the next
   cycle start, like a cold cache *)
Example C13_sticky_burnout_fixed :
  let bt := bt_list [1600000000000000000; 1600000015000000000; 1625920000000000000; 1625920015000000000;
                     1625920030000000000; 1625920045000000000] in
  let ys := [mkYear wclose 66590563165905631658 66590563165905631658] in
  pull wo bt ys 5 1000000000000000000000000 (mkCache (-1) 2 true 5000000000000000000)
  = pull wo bt ys 5 1000000000000000000000000 cold /\
  fst (pull wo bt ys 5 1000000000000000000000000 cold) = COk 186966632859782461696.
Proof. vm_compute. auto. Qed.

(* fixed 47bb3a6: after the failed recalculation at the cycle start (h = 5) the cache is cold, so
   at h = 6 the running node fails like a restarted one and pulls nothing *)
Example C13_overdrawn_year_fixed :
  let bt := bt_list [1600000000000000000; 1600000015000000000; 1617280000000000000; 1617280015000000000;
                     1617280030000000000; 1617280045000000000] in
  let ys := [mkYear wclose 139999933409436834094368342 139999933409436834094368342] in
  pull wo bt ys 5 1000000000000000000000000 (mkCache 0 2 false 69999933409436834094368342) = (CErr, cold) /\
  pull wo bt ys 6 1000000000000000000000000 cold = (CErr, cold).
Proof. vm_compute. auto. Qed.

(* What remains (not a violation of the property as stated, which bounds each single pull by what
   was left when the cycle began): after a slow cycle the forecast can be shorter than the cycle
   ([short_forecast]); each of the cycle's pulls is within the bound, but together they exceed it,
   so a year's TOTAL can exceed its supply — here 2 pulls of ~7e25 from a year of 7e25. *)
Example C13_year_total_can_exceed_supply :
  let bt := bt_list [1600000000000000000; 1600000015000000000; 1617280000000000000; 1617280015000000000] in
  let ys := [mkYear wclose 66590563165905631658 66590563165905631658] in
  short_forecast wo bt ys 3 = true /\
  fst (pull wo bt ys 3 1000000000000000000000000 cold) = COk 69999933409436834094368342 /\
  fst (pull wo bt ys 4 1000000000000000000000000 (mkCache 0 2 false 69999933409436834094368342))
    = COk 69999933409436834094368342 /\
  nthZ (o_shares wo) 0 0 < 2 * 69999933409436834094368342.
Proof. vm_compute. auto. Qed.
