(* C04 — only authentically signed, untampered transactions are admitted or executed.
   Only property theorems here, and the audited tables (trusted) the regenerated facts are checked against. *)
From Coq Require Import ZArith List Bool String.
Import ListNotations.
From OL Require Import theories.Auth proofs.AuthProofs gen.Facts_Signers gen.Facts_Validate
  gen.Facts_Wrapper gen.Facts_TxKinds theories.Caches gen.Facts_Caches.
Local Open Scope Z_scope.

(* admission (CheckTx): an accepted transaction carries, for each address its payload requires,
   in order, a signature produced by that address's key over exactly (type, payload, fee, memo) *)
Theorem C04_admit_sound : forall signers_of static_ok process_ok t,
  check_tx signers_of static_ok process_ok t = true ->
  authentic (t_raw t) (signers_of (t_raw t)) (t_sigs t).
Proof. intros * [H _]%andb_prop. exact (validate_sound _ _ _ H). Qed.
Print Assumptions C04_admit_sound.

(* tampering with type, payload, any fee field or memo after signing: the same signatures pass
   for at most one content *)
Theorem C04_tamper_rejected : forall msg msg' signers signers' sigs,
  validate_basic msg signers sigs = true -> validate_basic msg' signers' sigs = true ->
  signers' <> [] -> msg' = msg.
Proof.
  intros * ->%validate_basic_iff H%validate_basic_iff Hne.
  destruct signers' as [|a' ?]; [contradiction|]. destruct signers as [|a ?]; [discriminate|].
  unfold sign in H. cbn in H. congruence.
Qed.
Print Assumptions C04_tamper_rejected.

(* dropping, adding, reordering or substituting a required signer, or signing with another key *)
Theorem C04_keys_determined : forall msg signers sigs,
  validate_basic msg signers sigs = true -> map s_key sigs = signers.
Proof. intros * ->%validate_basic_iff. rewrite map_map. apply map_id. Qed.
Theorem C04_wrong_count_rejected : forall msg signers sigs,
  List.length sigs <> List.length signers -> validate_basic msg signers sigs = false.
Proof.
  intros * Hn. apply not_true_is_false. intros ->%validate_basic_iff. now rewrite map_length in Hn.
Qed.
Theorem C04_forged_signature_rejected : forall msg signers sigs i s,
  nth_error sigs i = Some s -> (s_by s <> s_key s \/ s_over s <> msg \/ s_alg_ok s = false) ->
  validate_basic msg signers sigs = false.
Proof.
  intros * Hn Hbad. apply not_true_is_false. intros ->%validate_basic_iff.
  rewrite nth_error_map in Hn. destruct (nth_error signers i); [|discriminate].
  injection Hn as <-. now destruct Hbad as [?|[?|?]].
Qed.

(* authentic transactions are not rejected by the signature rule (the rule is not vacuous) *)
Theorem C04_authentic_passes : forall msg signers,
  validate_basic msg signers (map (fun a => sign a msg) signers) = true.
Proof. intros. now apply validate_basic_iff. Qed.

(* delivery: the deliverer validates (fact below), so a transaction that is executed carries an
   authentic signature of every required signer over exactly its content *)
Theorem C04_deliver_sound : forall signers_of static_ok process_ok t,
  deliver_tx signers_of static_ok process_ok deliverer_calls_validate t = true ->
  authentic (t_raw t) (signers_of (t_raw t)) (t_sigs t).
Proof. intros * [H _]%andb_prop. exact (validate_sound _ _ _ H). Qed.
Print Assumptions C04_deliver_sound.

(* the call is necessary: a deliverer that does not validate executes a transaction without
   any signature (this was the code before fix d276709; finding C04.deliver_unvalidated) *)
Theorem C04_deliver_unvalidated_refuted : exists signers_of static_ok process_ok t,
  deliver_tx signers_of static_ok process_ok false t = true /\
  ~ authentic (t_raw t) (signers_of (t_raw t)) (t_sigs t).
Proof.
  exists (fun _ => [7]), (fun _ => true), (fun _ => true),
    {| t_raw := {| r_type := 1; r_data := 1; r_feecur := 0; r_feeprice := 1; r_feegas := 1; r_memo := 0 |};
       t_sigs := [] |}.
  split; [reflexivity|intros []].
Qed.

(* tie to the source (regenerated on every run), from here on.
   CheckTx calls handler.Validate before anything else, and so does DeliverTx: the handler call
   is guarded by an `if` on the Validate result that discards the session and returns *)
Theorem C04_fact_checker_validates : checker_calls_validate = true.
Proof. vm_compute. reflexivity. Qed.
Theorem C04_fact_deliverer_validates :
  deliverer_calls_validate = true /\ deliverer_validate_guards_handler = true.
Proof. split; reflexivity. Qed.

(* every handler's Validate calls ValidateBasic(tx.RawBytes(), msg.Signers(), tx.Signatures)
   before any `return true` and checks its error — except OLVM, audited: it recovers the
   EIP-155 sender from the embedded Ethereum transaction and compares it with From *)
Definition validate_exempt : list string := ["olvm.olvmTx"%string].
Theorem C04_fact_every_validate_checks :
  forallb (fun '(h, (calls, checks, _)) =>
             existsb (String.eqb h) validate_exempt || (calls && checks)) validate_table = true.
Proof. vm_compute. reflexivity. Qed.

(* the address fields whose authority each payload requires — written by hand from the
   semantics of each kind (whose value the transaction spends or speaks for) — are exactly the
   fields its Signers() returns, in order *)
Definition required_authority : list (string * list string) := [
  ("bid_action.BidderDecision", ["Bidder"]); ("bid_action.CancelBid", ["Bidder"]);
  ("bid_action.CounterOffer", ["AssetOwner"]); ("bid_action.CreateBid", ["Bidder"]);
  ("bid_action.ExpireBid", ["ValidatorAddress"]); ("bid_action.OwnerDecision", ["Owner"]);
  ("btc.AddSignature", ["ValidatorAddress"]); ("btc.BroadcastSuccess", ["ValidatorAddress"]);
  ("btc.FailedBroadcastReset", ["ValidatorAddress"]); ("btc.Lock", ["Locker"]);
  ("btc.Redeem", ["Redeemer"]); ("btc.ReportFinalityMint", ["ValidatorAddress"]);
  ("eth.ERC20Lock", ["Locker"]); ("eth.ERC20Redeem", ["Owner"]); ("eth.Lock", ["Locker"]);
  ("eth.Redeem", ["Owner"]); ("eth.ReportFinality", ["ValidatorAddress"]);
  ("evidence.Allegation", ["ValidatorAddress"]); ("evidence.AllegationVote", ["Address"]);
  ("evidence.Release", ["ValidatorAddress"]);
  ("governance.CancelProposal", ["Proposer"]); ("governance.CreateProposal", ["Proposer"]);
  ("governance.ExpireVotes", ["ValidatorAddress"]); ("governance.FinalizeProposal", ["ValidatorAddress"]);
  ("governance.FundProposal", ["FunderAddress"]);
  ("governance.VoteProposal", ["Address"; "ValidatorAddress"]);
  ("governance.WithdrawFunds", ["Funder"]);
  ("network_delegation.AddNetworkDelegation", ["DelegationAddress"]);
  ("network_delegation.Reinvest", ["Delegator"]); ("network_delegation.Undelegate", ["Delegator"]);
  ("network_delegation.Withdraw", ["Delegator"]);
  ("olvm.Transaction", ["From"]);
  ("ons.DeleteSub", ["Owner"]); ("ons.DomainCreate", ["Owner"]); ("ons.DomainPurchase", ["Buyer"]);
  ("ons.DomainSale", ["OwnerAddress"]); ("ons.DomainSend", ["From"]); ("ons.DomainUpdate", ["Owner"]);
  ("ons.RenewDomain", ["Owner"]);
  ("rewards.Withdraw", ["SignerAddress"]);
  ("staking.Stake", ["StakeAddress"; "ValidatorAddress"]);
  ("staking.Unstake", ["StakeAddress"; "ValidatorAddress"]);
  ("staking.Withdraw", ["StakeAddress"; "ValidatorAddress"]);
  ("transfer.Send", ["From"]); ("transfer.SendPool", ["From"])
]%string.

Definition table_eqb (a b : list (string * list string)) : bool :=
  (Nat.eqb (List.length a) (List.length b)) &&
  forallb (fun '((n1, f1), (n2, f2)) =>
             String.eqb n1 n2 && (Nat.eqb (List.length f1) (List.length f2)) &&
             forallb (fun '(x, y) => String.eqb x y) (combine f1 f2)) (combine a b).

Theorem C04_fact_signers_are_authority : table_eqb signers_table required_authority = true.
Proof. vm_compute. reflexivity. Qed.

Example C04_nonvacuous :
  let m := {| r_type := 1; r_data := 5; r_feecur := 0; r_feeprice := 9; r_feegas := 100; r_memo := 3 |} in
  let m' := {| r_type := 1; r_data := 6; r_feecur := 0; r_feeprice := 9; r_feegas := 100; r_memo := 3 |} in
  validate_basic m [11; 12] [sign 11 m; sign 12 m] = true /\
  validate_basic m' [11; 12] [sign 11 m; sign 12 m] = false /\
  validate_basic m [11; 12] [sign 12 m; sign 11 m] = false /\
  validate_basic m [11; 12] [sign 11 m] = false /\
  validate_basic m [11] [sign 13 m] = false /\
  (30 <=? Z.of_nat (List.length signers_table)) = true.
Proof. vm_compute. repeat split. Qed.

(* authentication of a request must not depend on earlier requests: the ABCI closures capture no
   variable (the decoded transaction is a fresh object per request) and the application object has no
   field outside the audited classes (e.g. no table of earlier validation outcomes) *)
Theorem C04_fact_no_state_across_requests : closure_vars = [] /\ unknown_fields cache_fields = [].
Proof. vm_compute. split; reflexivity. Qed.
Print Assumptions C04_fact_no_state_across_requests.
