(* C10 — validator-set updates are well formed and follow the staking rule.
   Only property theorems here; the lemmas they follow from are in proofs/ElectionProofs.v.

   Model: theories/Election.v (GetEndBlockUpdate), theories/Tendermint.v (UpdateWithChangeSet of
   tendermint v0.33.3 and the H+2 pipeline).  A history is a list of [env]: per block an ARBITRARY
   candidate table, options, malicious set, and an arbitrary election satisfying [valid_election]
   (the heap's tie-breaking is not modelled).  This is stronger than quantifying over the tables
   reachable by stake / unstake / withdraw / penalty / governance transactions. *)
From stdpp Require Import gmap list sorting.
From Coq Require Import ZArith Lia.
From OL Require Import theories.Election theories.Tendermint theories.ElectionCheck proofs.ElectionProofs.
Local Open Scope Z_scope.

(* the election the model makes (candidates by non-increasing power, the first top-count eligible
   ones) is a valid election, for every candidate table, options and malicious set *)
Theorem C10_model_election_valid : forall minp top mal cands, NoDup cands ->
  valid_election minp top mal cands (elect minp top mal cands).
Proof. exact elect_valid. Qed.
Print Assumptions C10_model_election_valid.

(* C10_rule.  For EVERY valid election (any tie-breaking), with a minimum self delegation of at
   least 1: every positive-power update names a candidate record of the previous block that is
   elected, has power (= stake: rule_okb in theories/ElectionCheck.v) at least the minimum, is
   not in the malicious set, and carries that power; at most top-count positive updates are
   issued; an eligible candidate that is left out has no more power than any elected one and is
   left out only because the top count is exhausted. *)
Theorem C10_rule : forall h byz cands el la pg minp top mal,
  valid_election minp top mal cands el -> 1 <= minp ->
  let ups := (finish h byz cands el la pg).1 in
  (forall k p, (k, p) ∈ ups -> 0 < p ->
     exists c, c ∈ cands /\ c ∈ el /\ c_pk c = k /\ c_power c = p /\ minp <= c_power c /\ c_addr c ∉ mal) /\
  Z.of_nat (length (List.filter (fun u : upd => 0 <? u.2) ups)) <= Z.max 0 top /\
  (forall d, d ∈ cands -> eligible minp mal d -> d ∉ el ->
     top <= Z.of_nat (length el) /\ forall c, c ∈ el -> c_power d <= c_power c).
Proof.
  intros h byz cands el la pg minp top mal Hv Hmin ups. subst ups.
  destruct ((1 <? h) || byz) eqn:Hon.
  2:{ unfold finish. rewrite Hon. split; [by intros k p ?%elem_of_nil|]. split; [simpl; lia|apply Hv]. }
  pose proof (positives_are_election h byz cands el la pg _ _ _ Hv Hmin Hon) as Hpos.
  split; [|split; [|apply Hv]].
  - intros k p Hin Hp.
    assert ((k, p) ∈ pos_updates el) as (c & Hc & -> & ->)%elem_of_pos_updates.
    { apply (elem_of_Permutation_proper _ _ _ Hpos), elem_of_filter. split; [done|]. by apply Z.ltb_lt. }
    destruct (ve_elig _ _ _ _ _ Hv c Hc). exists c. split; [exact (ve_sub _ _ _ _ _ Hv c Hc)|done].
  - rewrite (Permutation_length Hpos). unfold pos_updates. rewrite map_length. apply Hv.
Qed.
Print Assumptions C10_rule.

(* "neither frozen nor flagged malicious": the malicious set given to the election is the set of
   frozen records at EVERY height (CheckMaliciousValidators since /repo 304e1e1; before that fix it
   was empty while height <= BlockVotesDiff — finding C10.frozen_elected_in_votes_window, fixed).
   No frozen validator is elected, at any height, for any window. *)
Theorem C10_rule_no_frozen_elected : forall h bvd frozen minp top cands c, NoDup cands ->
  c ∈ elect minp top (malicious_set h bvd frozen) cands -> c_addr c ∉ frozen.
Proof.
  intros h bvd frozen minp top cands c Hnd Hc.
  exact (proj2 (ve_elig _ _ _ _ _ (elect_valid minp top frozen cands Hnd) c Hc)).
Qed.
Print Assumptions C10_rule_no_frozen_elected.

(* height 4 inside a window of 6, validator 3 frozen: left out (elected before /repo 304e1e1) *)
Example C10_frozen_in_window_not_elected :
  elect 1000 4 (malicious_set 4 6 [3%N]) [mkc 1%N 1%N 1500 1500; mkc 3%N 3%N 1200 1200]
  = [mkc 1%N 1%N 1500 1500].
Proof. vm_compute. reflexivity. Qed.

(* C10_accepted (partial: under the guard [env_ok]).  For every genesis set and every history
   whose blocks satisfy env_ok — record address = address of the record's consensus key, distinct
   addresses, 1 <= minimum (after int64 narrowing), top count >= 1, at least one eligible
   candidate, powers below per-key caps that sum to at most MaxTotalVotingPower — Tendermint
   accepts the update list of every block (no duplicate key, no removal of a non-member, set
   never emptied, powers and total in range): the run never halts. *)
Theorem C10_accepted_partial : forall U cap g es,
  cap_ok U cap -> genesis_ok U cap g -> Forall (env_ok U cap) es ->
  is_Some (chain_run (chain_init g) es).
Proof. exact accepted. Qed.
Print Assumptions C10_accepted_partial.

(* Since /repo 9246c8d the STAKE handler refuses a validator address that is not the address of
   the consensus key, and ValidatorStore.set has no other caller that creates a record.  "Record
   address = address of its key, distinct addresses" is therefore an INVARIANT of the record
   table under every sequence of record operations (stake, unstake / penalty, rewrite of the
   stake, deletion), not a hypothesis: *)
Theorem C10_records_keyed : forall ops t, table_ok t -> table_ok (rec_run t ops).
Proof. exact rec_run_ok. Qed.
Print Assumptions C10_records_keyed.

(* and no record gets a negative stake: the handlers refuse negative amounts (/repo 48c76fc) and
   HandleUnstake refuses a negative result (/repo e681066; before that fix a record could go
   negative and EndBlock exited the node — findings C10.negative_power_record /
   C10.zero_total_power, fixed) *)
Theorem C10_records_nonnegative : forall ops t, Forall op_nonneg ops -> stakes_nonneg t ->
  stakes_nonneg (rec_run t ops).
Proof. exact rec_run_nonneg. Qed.
Print Assumptions C10_records_nonnegative.

Example C10_unstake_more_than_record_refused :
  rec_run [mkc 6%N 6%N 488 488] [RUnstake 6%N 495] = [mkc 6%N 6%N 488 488].
Proof. vm_compute. reflexivity. Qed.

(* C10_accepted for reachable tables.  The candidate table of each block is the table the record
   operations of the previous blocks left (starting from a genesis table t0 whose records are
   keyed by the address of their key — the genesis loader calls HandleStake without the handler's
   check, so this is assumed of the genesis file).  What remains assumed per block (env_rest):
   1 <= minimum self delegation after int64 narrowing; top count >= 1; at least one eligible
   candidate (findings C10.no_eligible_candidate); the election is a valid one; powers below
   per-key caps that sum to at most MaxTotalVotingPower. *)
Theorem C10_accepted_reachable : forall U cap g t0 bs,
  cap_ok U cap -> genesis_ok U cap g -> table_ok t0 ->
  Forall (env_rest U cap) (envs_of t0 bs) -> is_Some (chain_run (chain_init g) (envs_of t0 bs)).
Proof. intros U cap g t0 bs Hcap Hg Ht Hr. by apply (accepted U cap), envs_of_ok. Qed.
Print Assumptions C10_accepted_reachable.

(* ... and "the run does not halt" means that each block's list passed the acceptance rule *)
Theorem C10_run_means_accepted : forall es ch ch', chain_run ch es = Some ch' ->
  forall pre e post, es = pre ++ e :: post ->
  exists ch1, chain_run ch pre = Some ch1 /\ acceptb (ch_next ch1) (chain_updates ch1 e).1 = true.
Proof.
  intros es ch ch' Hrun pre e post ->. rewrite chain_run_app in Hrun.
  destruct (chain_run ch pre) as [ch1|]; [|done]. exists ch1. split; [done|].
  simpl in Hrun. unfold chain_step in Hrun. by destruct (acceptb _ _).
Qed.

(* the invariant behind it, e.g. the purge bookkeeping: a validator missing from the next set
   although it signed recently was purged at one of the last two heights *)
Theorem C10_invariant : forall U cap es ch, cap_ok U cap -> chain_inv U cap ch ->
  Forall (env_ok U cap) es -> exists ch', chain_run ch es = Some ch' /\ chain_inv U cap ch'.
Proof. exact run_ok. Qed.
Print Assumptions C10_invariant.

(* non-vacuity: a concrete three-validator history satisfies every hypothesis *)
Definition ex_cap (k : key) : Z := 1000000.
Definition ex_U : list key := [1%N; 2%N; 3%N].
Definition ex_cands (p3 : Z) : list cand := [mkc 1%N 1%N 1500 1500; mkc 2%N 2%N 1200 1200; mkc 3%N 3%N p3 p3].
Definition ex_env (p3 : Z) : env :=
  let cs := ex_cands p3 in mke cs (mko 1000 2) [] false (elect 1000 2 [] cs).

Example C10_hypotheses_satisfiable :
  cap_ok ex_U ex_cap /\ genesis_ok ex_U ex_cap [(1%N, 1500); (2%N, 1200)] /\
  Forall (env_ok ex_U ex_cap) [ex_env 0; ex_env 2000; ex_env 2000; ex_env 900; ex_env 900].
Proof.
  assert (He : forall p3, p3 <= 1000000 -> env_ok ex_U ex_cap (ex_env p3)).
  { intros p3 Hp3. split; simpl.
    - by apply nodupb_true.
    - by intros c [->|[->|[->|[]%elem_of_nil]%elem_of_cons]%elem_of_cons]%elem_of_cons.
    - by vm_compute.
    - done.
    - exists (mkc 1%N 1%N 1500 1500). split; [left|]. split; [by vm_compute|apply not_elem_of_nil].
    - apply elect_valid, (NoDup_fmap_1 c_addr). by apply nodupb_true.
    - intros c [->|[->|[->|[]%elem_of_nil]%elem_of_cons]%elem_of_cons]%elem_of_cons; by repeat constructor. }
  split; [split; [by apply nodupb_true|done|by vm_compute]|]. split.
  - split; [by apply nodupb_true|].
    intros k p [[= -> ->]|[[= -> ->]|[]%elem_of_nil]%elem_of_cons]%elem_of_cons; by repeat constructor.
  - repeat (apply Forall_cons_2; [by apply He|]). apply Forall_nil_2.
Qed.

Example C10_example_run_accepted :
  chain_run (chain_init [(1%N, 1500); (2%N, 1200)]) [ex_env 0; ex_env 2000; ex_env 2000; ex_env 900; ex_env 900]
  <> None.
Proof. apply not_eq_None_Some, (bool_decide_unpack _). by vm_compute. Qed.

(* finding C10.duplicate_pubkey_stake (fixed, /repo 9246c8d): a STAKE registering address 2 with
   the consensus key of validator 1 is refused, the table is unchanged, and the run is accepted *)
Example C10_duplicate_key_stake_refused :
  rec_run [mkc 1%N 1%N 1000 1000] [RStake 2%N 1%N 5000] = [mkc 1%N 1%N 1000 1000] /\
  chain_run (chain_init [(1%N, 1000)])
    (envs_of [mkc 1%N 1%N 1000 1000]
       [mkblk [RStake 2%N 1%N 5000] (mko 1000 4) [] false [mkc 1%N 1%N 1000 1000];
        mkblk [] (mko 1000 4) [] false [mkc 1%N 1%N 1000 1000];
        mkblk [] (mko 1000 4) [] false [mkc 1%N 1%N 1000 1000]]) <> None.
Proof. split; vm_compute; [reflexivity|discriminate]. Qed.

(* (the invariant matters: an arbitrary table with two records sharing a key — no longer
   reachable — would make Tendermint reject) *)
Definition dup_cands : list cand := [mkc 1%N 1%N 1000 1000; mkc 2%N 1%N 5000 5000].
Definition dup_env : env := mke dup_cands (mko 1000 4) [] false (elect 1000 4 [] dup_cands).
Example C10_accepted_needs_keyed_tables :
  chain_run (chain_init [(1%N, 1000)]) [dup_env; dup_env] = None.
Proof. vm_compute. reflexivity. Qed.

(* without "at least one eligible candidate" (everybody unstaked: known finding
   C10.no_eligible_candidate) the only update removes the last validator: rejected *)
Definition gone_env : env := mke [mkc 1%N 1%N 0 0] (mko 1000 4) [] false [].
Theorem C10_accepted_refuted_no_eligible : exists g es,
  elect 1000 4 [] [mkc 1%N 1%N 0 0] = [] /\ chain_run (chain_init g) es = None.
Proof. exists [(1%N, 1000)], [gone_env; gone_env]. split; vm_compute; reflexivity. Qed.

(* C10_converges (partial).  From any state satisfying the chain invariant (every reachable state
   does: C10_invariant) at height >= 1, if the candidate table, options, malicious set and
   election stay the same and satisfy env_ok, then after 3 blocks — hence after the 5 of the
   property text, and after any larger number — the pending validator set is exactly the
   election (keys and powers), PROVIDED every member of the pending set still has a validator
   record.  That proviso is the complement of trigger C10.member_without_record. *)
Theorem C10_converges_partial : forall U cap ch e n, cap_ok U cap -> chain_inv U cap ch -> env_ok U cap e ->
  1 <= ch_height ch ->
  (forall a, a ∈ vkeys (ch_next ch) -> a ∈ map c_addr (e_cands e)) ->
  exists ch', chain_run ch (replicate (3 + n) e) = Some ch' /\ ch_next ch' ≡ₚ pos_updates (e_el e).
Proof. exact converges. Qed.
Print Assumptions C10_converges_partial.

Theorem C10_converges_five_blocks : forall U cap ch e, cap_ok U cap -> chain_inv U cap ch -> env_ok U cap e ->
  1 <= ch_height ch ->
  (forall a, a ∈ vkeys (ch_next ch) -> a ∈ map c_addr (e_cands e)) ->
  exists ch', chain_run ch (replicate 5 e) = Some ch' /\ ch_next ch' ≡ₚ pos_updates (e_el e).
Proof. intros U cap ch e. exact (converges U cap ch e 2). Qed.
Print Assumptions C10_converges_five_blocks.

(* C10_converges is false of the faithful model: a validator that is elected once and whose record
   disappears before it shows up in LastCommitInfo is never purged (known finding
   C10.member_without_record): after 6 blocks of unchanged input the set still is not the election *)
Definition quiet_env : env := let cs := [mkc 2%N 2%N 1000 1000] in mke cs (mko 1000 4) [] false (elect 1000 4 [] cs).
Definition ghost_in : env :=
  let cs := [mkc 2%N 2%N 1000 1000; mkc 1%N 1%N 7000 7000] in mke cs (mko 1000 4) [] false (elect 1000 4 [] cs).
Definition ghost_out : env :=
  let cs := [mkc 2%N 2%N 1000 1000; mkc 1%N 1%N 0 0] in mke cs (mko 1000 4) [] false (elect 1000 4 [] cs).
Theorem C10_converges_refuted_member_without_record : exists g es ch,
  chain_run (chain_init g) (es ++ replicate 6 quiet_env) = Some ch /\
  upds_eqb (canon (ch_next ch)) (canon (pos_updates (e_el quiet_env))) = false /\
  existsb (fun u => negb (existsb (fun d => N.eqb (c_addr d) u.1) (e_cands quiet_env))) (ch_next ch) = true.
Proof.
  exists [(2%N, 1000)], [quiet_env; quiet_env; ghost_in; ghost_out]. eexists.
  split; [vm_compute; reflexivity|]. split; vm_compute; reflexivity.
Qed.

(* ... while a member that still has a record (here below the minimum) is purged and the set
   becomes exactly the election (the partial theorem is not vacuous) *)
Definition quiet_env2 : env :=
  let cs := [mkc 2%N 2%N 1000 1000; mkc 3%N 3%N 900 900] in mke cs (mko 1000 4) [] false (elect 1000 4 [] cs).
Example C10_converges_example : exists ch,
  chain_run (chain_init [(2%N, 1000); (3%N, 900)]) (replicate 5 quiet_env2) = Some ch /\
  upds_eqb (canon (ch_next ch)) (canon (pos_updates (e_el quiet_env2))) = true.
Proof. eexists. split; vm_compute; reflexivity. Qed.
