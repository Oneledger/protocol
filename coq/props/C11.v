(* C11 — stake lifecycle: unstaked funds unlock only after maturity, exactly once. *)
From stdpp Require Import gmap list.
Require Import ZArith Lia.
From OL Require Import theories.Stake proofs.StakeProofs.
Open Scope Z_scope.

(* The validator's total equals the sum of its delegators' locked amounts.  FULL since fix cb71748
   (the allegation penalty is applied all or nothing): every history, every environment input,
   every verdict; no guard. *)
Theorem C11_validator_total : forall os,
  let s := run empty_state os in
  (forall v, zget (vtot s) v = esum_v s v) /\ (forall d, zget (deff s) d = esum_d s d).
Proof. exact validator_total. Qed.
Print Assumptions C11_validator_total.

(* the input of the former finding C11.penalty_not_atomic (fixed by cb71748; replayed on the real
   application on every run): stake address changed in the block of the verdict *)
Definition w_penalty : list op :=
  [OGenStake 1 2 3000000; OGenStake 5 6 2998000; OBegin []; OEnd 1 [];
   OBegin []; OUnstake 5 6 2998000 false false 2 0 false false; OEnd 2 [];
   OBegin []; OWithdraw 5 6 2998000 false false; OStake 5 12 5000 false (1000000 * base) 3 0 false false;
   OEnd 3 [(5%positive, 30, 100)]].
Example C11_former_witness_penalty_holds :
  let s := run empty_state w_penalty in
  zget (vtot s) 5%positive = 5000 /\ esum_v s 5%positive = 5000 /\ zget (eff s) (5%positive, 12%positive) = 5000 /\ pend s = [].
Proof. vm_compute. repeat split. Qed.

(* nothing happens while the validator named in the transaction is frozen *)
Theorem C11_frozen : forall s v d a bal h m ro pb ff,
  step s (OStake v d a true bal h m pb ff) = (s, false) /\
  step s (OUnstake v d a true ro h m pb ff) = (s, false) /\
  step s (OWithdraw v d a true ff) = (s, false).
Proof.
  intros. repeat split; simpl.
  - edestruct do_stake_cases as [E|[E _]]; [exact E|discriminate].
  - edestruct do_unstake_cases as [E|[E _]]; [exact E|discriminate].
  - edestruct do_withdraw_cases as [E|[E _]]; [exact E|discriminate].
Qed.
Print Assumptions C11_frozen.

(* ... but "nothing can be withdrawn while the delegator's validator is frozen" is refuted: the
   frozen flag consulted is that of the validator NAMED in the WITHDRAW (trigger
   C11.withdraw_names_other_validator); validator 5 (stake account 6) is frozen, 11 is not *)
Definition w_sidestep : list op :=
  [OGenStake 5 6 2998000; OBegin []; OEnd 1 []; OBegin []; OUnstake 5 6 1000 false false 2 2 false false; OEnd 2 [];
   OBegin []; OEnd 3 []; OBegin []; OEnd 4 []].
Theorem C11_frozen_refuted_1 : exists os o,
  let s := run empty_state os in
  o = OWithdraw 11 6 400 false false /\ frozen_owner s [5%positive] 6%positive = true /\
  snd (step s o) = true /\ bal_delta o true = 400 * base.
Proof. exists w_sidestep, (OWithdraw 11 6 400 false false). vm_compute. repeat split. Qed.
Print Assumptions C11_frozen_refuted_1.

(* withdrawn <= staked - penalised, exactly once (the central claim).
   FULL since fix 48c76fc (the handlers reject amounts outside [0, 2^63)): for every history of
   operations, every value of the environment inputs and every verdict, over a genesis with
   non-negative amounts.  Whole OLT, base units on the balance side, and the conservation law: what
   was staked and not penalised or withdrawn is exactly what is still locked (effective),
   withdrawable (bounded) or maturing — every unit in exactly one place, each place non-negative. *)
Theorem C11_withdraw_bounded : forall os,
  forallb gen_nonneg os = true ->
  let s := run empty_state os in
  forall d,
    zget (g_withdrawn s) d <= zget (g_staked s) d - zget (g_pen s) d /\
    zget (g_out s) d <= zget (g_in s) d - zget (g_pen s) d * base /\
    zget (g_staked s) d - zget (g_pen s) d - zget (g_withdrawn s) d
      = zget (deff s) d + zget (dbnd s) d + maturing s d /\
    0 <= zget (deff s) d /\ 0 <= zget (dbnd s) d /\ 0 <= maturing s d.
Proof.
  intros os Hg s d. pose proof (conserved_run os empty_state Hg conserved_empty) as Hs. fold s in Hs.
  pose proof (maturing_nonneg s d Hs). destruct Hs as [Hs _]. destruct (Hs d) as (HC & Hd & Hb & -> & ->).
  unfold base. lia.
Qed.
Print Assumptions C11_withdraw_bounded.

(* non-vacuity: a history in which something IS withdrawn (1000 of 2998000, after maturity) *)
Definition w_life : list op :=
  [OGenStake 5 6 2998000; OBegin []; OEnd 1 []; OBegin []; OUnstake 5 6 1000 false false 2 2 false false; OEnd 2 [];
   OBegin []; OEnd 3 []; OBegin []; OEnd 4 []; OBegin []; OWithdraw 5 6 1000 false false; OEnd 5 []].
Example C11_withdraw_bounded_nonvacuous :
  forallb gen_nonneg w_life = true /\ zget (g_withdrawn (run empty_state w_life)) 6%positive = 1000 /\
  zget (g_out (run empty_state w_life)) 6%positive = 1000 * base.
Proof. (* the run is named so that it is evaluated once for both conjuncts *)
  set (s := run empty_state w_life). vm_compute. repeat split.
Qed.

(* amounts that are negative or do not fit int64 are rejected by all three handlers *)
Theorem C11_amount_out_of_range_rejected : forall s v d a fz bal h m ro pb ff,
  amount_ok a = false ->
  step s (OStake v d a fz bal h m pb ff) = (s, false) /\
  step s (OUnstake v d a fz ro h m pb ff) = (s, false) /\
  step s (OWithdraw v d a fz ff) = (s, false).
Proof.
  intros s v d a fz bal h m ro pb ff Ha. repeat split; simpl.
  - edestruct do_stake_cases as [E|(_ & E & _)]; [exact E|congruence].
  - edestruct do_unstake_cases as [E|(_ & E & _)]; [exact E|congruence].
  - edestruct do_withdraw_cases as [E|(_ & E & _)]; [exact E|congruence].
Qed.
Print Assumptions C11_amount_out_of_range_rejected.

(* the inputs of the former findings C11.stake_amount_ge_2p63 and C11.negative_amount_deliver (fixed
   by 48c76fc; replayed on the real application on every run) are rejected *)
Example C11_former_witness_2p64_rejected :
  trig_narrow (OStake 9 10 (2^64) false (1000000 * base) 2 2 false false) = true /\
  step empty_state (OStake 9 10 (2^64) false (1000000 * base) 2 2 false false) = (empty_state, false).
Proof. vm_compute. split; reflexivity. Qed.
Example C11_former_witness_negative_rejected :
  trig_negative (OStake 11 12 (-100) false (1000000 * base) 2 2 false false) = true /\
  step empty_state (OStake 11 12 (-100) false (1000000 * base) 2 2 false false) = (empty_state, false) /\
  step empty_state (OWithdraw 3 4 (-7) false false) = (empty_state, false).
Proof. vm_compute. repeat split. Qed.

(* The validator's recorded stake (v_) equals the validator total (st__t_).
   FULL since fixes e681066 (record deleted only when the CURRENT record is powerless; a negative
   record stake is refused), cb71748 (record update postponed only when the penalty was applied)
   and 0ce270f (the postponed update is not subject to the purge-height rule): for every history,
   every environment input and every verdict, the record's stake equals the total plus the penalty
   decided in the last end-block and still to be applied by the next BeginBlock (pend = [] after
   every BeginBlock), the power equals the stake, and a validator without a record has no locked
   stake.  Environment assumptions (record_env_violated = false at every step; none of them is a
   trigger of a defect):
     - genesis amounts are non-negative                                    (gen_nonneg)
     - no validator record reaches 2^63 whole OLT (calculatePower narrows;
       more than the total supply by nine orders of magnitude)             (stake_overflow)
     - PenaltyBasePercentage >= 0 and PenaltyBaseDecimals > 0               (verdict_params_ok) *)
Theorem C11_validator_record : forall os,
  guarded record_env_violated empty_state os = true ->
  let s := run empty_state os in
  forall v,
    match vrecs s !! v with
    | Some r => vr_staking r = zget (vtot s) v + entries_of (pend s) v /\ vr_power r = vr_staking r /\ 0 <= vr_staking r
    | None => zget (vtot s) v = 0
    end.
Proof.
  intros os Hg s v. destruct (rec_inv_run os empty_state Hg rec_inv_empty) as (H1 & H2 & H3). fold s in H1, H2, H3.
  specialize (H1 v). specialize (H3 v). pose proof (entries_of_nonneg _ v H2) as Hp.
  destruct (vrecs s !! v) as [r|]; [|apply H3].
  pose proof (rec_ok_power r _ _ H1 Hp H3). destruct H3 as (E & _). repeat split; [exact E|assumption|lia].
Qed.
Print Assumptions C11_validator_record.

(* non-vacuity: a history with stake, unstake, a verdict with penalty and the postponed update *)
Example C11_validator_record_nonvacuous :
  guarded record_env_violated empty_state
    [OGenStake 1 2 3000; OBegin []; OStake 1 2 500 false (10000 * base) 2 3 false false;
     OUnstake 1 2 700 false false 2 3 false false; OEnd 2 [(1%positive, 30, 100)]; OBegin []; OEnd 3 []] = true.
Proof. vm_compute. reflexivity. Qed.

(* the input of the former finding C11.postponed_penalty_blocked (fixed by 0ce270f; replayed on the
   real application on every run): the verdict of block 3 reduces st__t_ from 500 to 350;
   BeginBlock 4 — right after the purge of block 3 — applies it to the record *)
Definition w_blocked : list op :=
  [OGenStake 5 6 2998000; OBegin []; OEnd 1 []; OBegin []; OUnstake 5 6 2997500 false false 2 2 false false; OEnd 2 [];
   OBegin []; OEnd 3 [(5%positive, 30, 100)]; OBegin [5%positive]; OEnd 4 []].
Example C11_former_witness_blocked_holds :
  trig_postponed_blocked (run empty_state (firstn 8 w_blocked)) (OBegin [5%positive]) = true /\
  guarded record_env_violated empty_state w_blocked = true /\
  vrecs (run empty_state w_blocked) !! 5%positive = Some (VRec 6%positive 350 350) /\
  zget (vtot (run empty_state w_blocked)) 5%positive = 350.
Proof. set (s := run empty_state w_blocked). vm_compute. repeat split. Qed.

(* the input of the former finding C11.validator_record_deleted_with_stake (fixed by e681066): the
   record survives the end-block and stays equal to the total *)
Definition w_deleted : list op :=
  [OGenStake 5 6 2998000; OBegin []; OEnd 1 [];
   OBegin []; OUnstake 5 6 2998000 false false 2 2 false false; OEnd 2 [];
   OBegin []; OStake 5 6 5000 false (1000000 * base) 3 2 false false; OEnd 3 [];
   OBegin []; OEnd 4 []; OBegin []; OStake 5 6 10 false (1000000 * base) 5 2 false false; OEnd 5 []].
Example C11_former_witness_deleted_holds :
  guarded record_env_violated empty_state w_deleted = true /\
  vrecs (run empty_state w_deleted) !! 5%positive = Some (VRec 6%positive 5010 5010) /\
  zget (vtot (run empty_state w_deleted)) 5%positive = 5010.
Proof. set (s := run empty_state w_deleted). vm_compute. repeat split. Qed.

(* maturity: an accepted unstake at height h, with the maturity option m in force, enters its amount
   under height h + m and adds nothing to anybody's withdrawable amount *)
Theorem C11_maturity_unstake_entry : forall s v d a ro h m pb ff s',
  step s (OUnstake v d a false ro h m pb ff) = (s', true) ->
  mat s' = <[h + m := mat_at s (h + m) ++ [(d, a)]]> (mat s) /\ dbnd s' = dbnd s.
Proof.
  intros s v d a ro h m pb ff s'. unfold step.
  edestruct do_unstake_cases as [->|(_ & _ & _ & _ & r & _ & ->)]; [discriminate|].
  intros [= <-]. split; reflexivity.
Qed.
Print Assumptions C11_maturity_unstake_entry.

(* the withdrawable amount grows only in the end-block hook: no transaction and no begin-block
   raises anybody's withdrawable amount (FULL since fix 48c76fc) *)
Theorem C11_maturity_withdrawable : forall s o d',
  match o with OStake _ _ _ _ _ _ _ _ _ | OUnstake _ _ _ _ _ _ _ _ _ | OWithdraw _ _ _ _ _ | OBegin _ => True | _ => False end ->
  zget (dbnd (fst (step s o))) d' <= zget (dbnd s) d'.
Proof.
  intros s o d' Hk. destruct o; try contradiction; simpl.
  - edestruct do_stake_cases as [->|(_ & _ & u & ->)]; apply Z.le_refl.
  - edestruct do_unstake_cases as [->|(_ & _ & _ & _ & r & _ & ->)]; apply Z.le_refl.
  - edestruct do_withdraw_cases as [->|(_ & Ha%amount_ok_range & _ & ->)]; [apply Z.le_refl|].
    simpl. rewrite zget_zadd. destruct (Pos.eqb _ d'); lia.
  - apply Z.le_refl.
Qed.
Print Assumptions C11_maturity_withdrawable.

(* Changes of the maturity option: only a FINALISED proposal counts.
   (gstep: the life cycle with the maturity option read from its persisted value.)  Proposals about
   the option that are not finalised — created, only CheckTx'ed, refused, funded, voted — are a frame:
   dropping them from any history changes neither the state nor the option, hence no maturity
   height; and every unstake is recorded at height + the option in force in the store. *)
Theorem C11_maturity_unfinalised_proposals_frame : forall l gs,
  grun gs l = grun gs (filter (fun g => not_unfinalised g = true) l).
Proof.
  induction l as [|[o|[|] n] l IH]; intros gs; [reflexivity|..].
  - rewrite filter_cons_True by reflexivity. apply IH.
  - rewrite filter_cons_True by reflexivity. apply IH.
  - rewrite filter_cons_False by discriminate. destruct gs. apply IH.
Qed.
Print Assumptions C11_maturity_unfinalised_proposals_frame.

Theorem C11_maturity_option_in_force : forall s m v d a ro h m0 pb ff,
  snd (step s (OUnstake v d a false ro h m pb ff)) = true ->
  mat (fst (gstep (s, m) (GOp (OUnstake v d a false ro h m0 pb ff))))
    = <[h + m := mat_at s (h + m) ++ [(d, a)]]> (mat s).
Proof.
  intros s m v d a ro h m0 pb ff Hok. simpl in *.
  destruct (do_unstake s v d a false ro h m pb ff) as [s' ok] eqn:E. simpl in Hok. subst ok.
  apply (C11_maturity_unstake_entry _ _ _ _ _ _ _ _ _ _ E).
Qed.
Print Assumptions C11_maturity_option_in_force.

(* non-vacuity: a refused/unfinalised proposal for 3 blocks between stake and unstake leaves the entry
   at height + 109200; a finalised one for 150000 moves later entries *)
Example C11_maturity_proposals_nonvacuous :
  let l := [GOp (OGenStake 5 6 2998000); GOp (OBegin []); GProposal false 3;
            GOp (OUnstake 5 6 100 false false 2 0 false false); GProposal true 150000;
            GOp (OUnstake 5 6 200 false false 3 0 false false)] in
  mat_at (fst (grun (empty_state, 109200) l)) (2 + 109200) = [(6%positive, 100)] /\
  mat_at (fst (grun (empty_state, 109200) l)) (3 + 150000) = [(6%positive, 200)] /\
  mat_at (fst (grun (empty_state, 109200) l)) (2 + 3) = [].
Proof. intros l. set (gs := grun (empty_state, 109200) l). vm_compute. repeat split. Qed.
