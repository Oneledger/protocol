(* C14 — governance proposals follow their lifecycle and their funds are accounted for.
   The property theorems; the lemmas about handlers, steps and histories they follow from are in proofs/GovProofs.v *)
From stdpp Require Import gmap list.
From Coq Require Import ZArith String Lia.
From OL Require Import theories.Gov theories.GovCheck proofs.GovProofs gen.Facts_TxKinds.
Local Open Scope Z_scope.

(* ---- tie to the source: which governance kinds the PUBLIC router accepts (regenerated on every run).
   The model's public operations are exactly these; EXPIRE_VOTES and PROPOSAL_FINALIZE are among them. ---- *)
Definition gov_public_kinds : list string :=
  ["PROPOSAL_CREATE"; "PROPOSAL_FUND"; "PROPOSAL_VOTE"; "PROPOSAL_CANCEL"; "PROPOSAL_WITHDRAW_FUNDS";
   "EXPIRE_VOTES"; "PROPOSAL_FINALIZE"]%string.
Definition gov_internal_kinds : list string := ["EXPIRE_VOTES"; "PROPOSAL_FINALIZE"]%string.
Definition mem_str (x : string) (l : list string) : bool := existsb (String.eqb x) l.
Definition is_gov_kind (k : string) : bool :=
  String.prefix "PROPOSAL_" k || String.eqb k "EXPIRE_VOTES".
Theorem C14_fact_routers :
  List.filter is_gov_kind public_kinds = List.filter (fun k => mem_str k gov_public_kinds) public_kinds /\
  forallb (fun k => mem_str k public_kinds) gov_public_kinds = true /\
  List.filter is_gov_kind internal_kinds = gov_internal_kinds.
Proof. vm_compute. repeat split; reflexivity. Qed.

(* ---- (1) lifecycle: the stage never moves backwards, along EVERY history (FULL since /repo 9dda72d).
   rank: absent 0 < funding 1 < voting 2 < passed/failed 3 < finalized/finalizeFailed 4. ---- *)
Theorem C14_stage_monotone : forall ts1 ts2 id,
  (rank_of (run init ts1).1 id <= rank_of (run (run init ts1).1 ts2).1 id)%nat.
Proof. intros. apply run_rank. Qed.
Print Assumptions C14_stage_monotone.

Theorem C14_stage_monotone_from : forall s ts, Inv s ->
  Inv (run s ts).1 /\ forall id, (rank_of s id <= rank_of (run s ts).1 id)%nat.
Proof. intros s ts HI. split; [by apply run_Inv | intros; apply run_rank]. Qed.
Print Assumptions C14_stage_monotone_from.

(* terminal states are never left: a record in the finalized or the finalize-failed store is never changed again,
   from any state and by any history (in particular it never moves back) *)
Theorem C14_terminal_never_left : forall s ts id p, g_props s !! id = Some p ->
  p_store p = SFinalized \/ p_store p = SFinFailed -> g_props (run s ts).1 !! id = Some p.
Proof.
  intros s ts id p Hp Ht. apply (run_ind (fun s' => g_props s' !! id = Some p)); [|done].
  apply Forall_true. intros t s' H. by apply step_terminal.
Qed.
Print Assumptions C14_terminal_never_left.

(* ids are unique across all five stores (active, passed, failed, finalized, finalize-failed): along every history an
   id that has ever been created is never accepted by PROPOSAL_CREATE again — any sender, any parameters, any later
   state — and a successful create always concerns an id that no store holds *)
Theorem C14_id_never_created_twice : forall ts1 ts2 id ty pr amt fdl vdl goal pass cv e payer fee cur,
  (1 <= rank_of (run init ts1).1 id)%nat ->
  let s := (run (run init ts1).1 ts2).1 in
  step s (mkTx (OCreate id ty pr amt fdl vdl goal pass cv) e payer fee cur) = (s, false, []).
Proof.
  intros ts1 ts2 id ty pr amt fdl vdl goal pass cv e payer fee cur Hr s.
  eapply create_existing; [done|]. etrans; [exact Hr | apply run_rank].
Qed.
Print Assumptions C14_id_never_created_twice.

Theorem C14_create_only_fresh : forall s e id ty pr amt fdl vdl goal pass cv s' ev,
  h_create s e id ty pr amt fdl vdl goal pass cv = Some (s', ev) -> g_props s !! id = None.
Proof. intros * H%h_create_Some. apply H. Qed.

(* witness environment: one validator (account 10, power 100) *)
Definition wopts : opts := mkOpts 1 10 5 51 (mkDist 180000 180000 100000 180000 180000) (mkDist 180000 180000 100000 180000 180000).
Definition wenv : env := mkEnv wopts wopts wopts [(10%N, 100)] [10%N] 13%N 14%N [].
Definition wtx (o : op) (_ : list (N * N)) : txop := mkTx o wenv 0%N 0 0%N.

(* an honest life of a configuration proposal up to its automatic finalisation *)
Definition w_life (keep : list (N * N)) : list txop :=
  [wtx (OAdjust 1%N 100) []; wtx (OAdjust 2%N 100) [];
   wtx (OBegin 1) []; wtx (OCreate 0%N TConfig 1%N 5 5 10 10 51 true) []; wtx (OFund 0%N 2%N 5) []; wtx OEnd [];
   wtx (OBegin 2) []; wtx (OVote 0%N 10%N OpYes) []; wtx OEnd [];
   wtx (OBegin 3) []; wtx OEnd keep].

(* finding C14.stale_fund_records (fixed by /repo 9dda72d), the repaired behaviour: the finalisation leaves no funder
   record, a later withdrawal attempt on the finalised proposal (zero or positive amount) is refused and the proposal
   stays in its last stage *)
Example C14_stale_records_repaired :
  let s := (run init (w_life [])).1 in
  (fun p => (p_store p, p_indiv p, p_total p)) <$> (g_props s !! 0%N) = Some (SFinalized, [], 0) /\
  let s6 := (step s (wtx (OBegin 6) [])).1.1 in
  (step s6 (wtx (OWithdraw 0%N 2%N 0 2%N) [])).1.2 = false /\
  (step s6 (wtx (OWithdraw 0%N 2%N 5 2%N) [])).1.2 = false /\
  rank_of (run s6 [wtx (OWithdraw 0%N 2%N 0 2%N) []; wtx (OWithdraw 0%N 2%N 5 2%N) []]).1 0%N = 4%nat.
Proof. vm_compute. repeat split; reflexivity. Qed.

(* non-vacuity: the honest life reaches the last stage, applying the update once *)
Example C14_life_nonvacuous :
  rank_of (run init (w_life [])).1 0%N = 4%nat /\
  (run init (w_life [])).2 = [EvContrib 0 1 5; EvContrib 0 2 5; EvConfig 0; EvDistrib 0 9 10] /\
  g_applied (run init (w_life [])).1 = [0%N] /\ g_anom (run init (w_life [])).1 = false.
Proof. vm_compute. repeat split; reflexivity. Qed.

(* non-vacuity for the finalize-failed outcome: the update function of a passed configuration proposal reports an
   error at finalisation ([e_cfgfail]): the proposal ends in the finalize-failed store with its funds still recorded,
   no configuration change is applied, and its id cannot be created again *)
Example C14_finalize_failed_terminal :
  let fenv := mkEnv wopts wopts wopts [(10%N, 100)] [10%N] 13%N 14%N [0%N] in
  let ts := [wtx (OAdjust 1%N 100) []; wtx (OAdjust 2%N 100) [];
             wtx (OBegin 1) []; wtx (OCreate 0%N TConfig 1%N 5 5 10 10 51 true) []; wtx (OFund 0%N 2%N 5) []; wtx OEnd [];
             wtx (OBegin 2) []; wtx (OVote 0%N 10%N OpYes) []; wtx OEnd [];
             wtx (OBegin 3) []; mkTx OEnd fenv 0%N 0 0%N; wtx (OBegin 4) []] in
  let s := (run init ts).1 in
  (fun p => (p_store p, p_total p)) <$> (g_props s !! 0%N) = Some (SFinFailed, 10) /\
  (run init ts).2 = [EvContrib 0 1 5; EvContrib 0 2 5] /\ g_applied s = [] /\
  (step s (wtx (OCreate 0%N TGeneral 2%N 5 9 14 10 51 true) [])).1.2 = false /\
  (step s (wtx (OCreate 1%N TGeneral 2%N 5 9 14 10 51 true) [])).1.2 = true /\
  (step s (wtx (OWithdraw 0%N 2%N 5 2%N) [])).1.2 = false.
Proof. vm_compute. repeat split; reflexivity. Qed.

(* ---- (2) voting starts only when the goal is met no later than the funding deadline ---- *)
Theorem C14_voting_only_when_goal_met : forall s e id f amt s' ev p p',
  h_fund s e id f amt = Some (s', ev) -> g_props s !! id = Some p -> g_props s' !! id = Some p' ->
  p_status p = StFunding /\ p_store p = SActive /\ g_h s <= p_fdl p /\ p_total p' = p_total p + amt /\
  (p_status p' = StVoting -> p_goal p <= p_total p' /\ p_vdl p' = g_h s + o_vdelta (opts_of e (p_type p))) /\
  (p_status p' = StFunding -> p_total p' < p_goal p).
Proof.
  intros s e id f amt s' ev p p' (q & E & Ha & Hs & Hd & Hf & _ & -> & _)%h_fund_Some Hp Hp'.
  assert (q = p) as -> by congruence. simpl in Hp'. rewrite lookup_insert, add_funds_eq in Hp'. injection Hp' as <-.
  destruct (Z.leb_spec (p_goal p) (amt + p_total p)); simpl; split_and!; try assumption; try reflexivity; intros;
    split_and?; congruence || lia.
Qed.
Print Assumptions C14_voting_only_when_goal_met.

(* ---- (3) expiry.  The BeginBlock rule queues a proposal for expiry only when it is in its voting stage and
   the voting deadline is behind the block height ... ---- *)
Theorem C14_expire_queue_sound : forall s h id, id ∈ g_qexp (begin_block s h) ->
  exists p, g_props s !! id = Some p /\ p_store p = SActive /\ p_status p = StVoting /\ p_vdl p < h.
Proof.
  intros s h id (p & Hp & Hw)%elem_of_ids_where. exists p. unfold want_expire in Hw.
  apply andb_prop in Hw as [[H1%bool_decide_eq_true H2%bool_decide_eq_true]%andb_prop H3%Z.ltb_lt]. auto.
Qed.
Print Assumptions C14_expire_queue_sound.

(* ... and, since /repo 0988205 (runExpireVotes requires the voting stage and a passed voting deadline; the kind is
   still in the public router), the FULL statement holds: along every history, whatever the next operation is
   (any kind, any sender, any height, any inputs, including the public EXPIRE_VOTES and the EndBlock queues), a
   proposal acquires the outcome insufficientVotes only if, before that operation, it was in its voting stage
   with its voting deadline behind the current height. *)
Theorem C14_expiry_after_deadline : forall ts t id p',
  let s := (run init ts).1 in
  g_props (step s t).1.1 !! id = Some p' -> p_outcome p' = OInsufVotes ->
  exists p, g_props s !! id = Some p /\
    (p_outcome p = OInsufVotes \/ (p_store p = SActive /\ p_status p = StVoting /\ p_vdl p < g_h s)).
Proof. intros ts t id p' s. apply step_expiry. Qed.
Print Assumptions C14_expiry_after_deadline.

(* finding C14.public_expire_votes (fixed by /repo 0988205), the repaired behaviour: a public EXPIRE_VOTES on a
   proposal in its FUNDING stage (deadline 5) at height 1 is refused and changes nothing; on a voting proposal it is
   refused until the voting deadline (6) is behind the height, then it succeeds *)
Example C14_public_expire_repaired :
  let ts := [wtx (OAdjust 1%N 100) []; wtx (OBegin 1) []; wtx (OCreate 0%N TGeneral 1%N 5 5 10 10 51 true) []] in
  let s := (run init ts).1 in
  trig_public_expire (wtx (OExpire 0%N) []) = true /\
  (step s (wtx (OExpire 0%N) [])).1.2 = false /\ (step s (wtx (OExpire 0%N) [])).1.1 = s /\
  let s2 := (run s [wtx (OFund 0%N 1%N 5) []; wtx OEnd []; wtx (OBegin 6) []]).1 in
  (step s2 (wtx (OExpire 0%N) [])).1.2 = false /\
  let s3 := (run s2 [wtx OEnd []; wtx (OBegin 7) []; wtx (OExpire 0%N) []]).1 in
  p_outcome <$> (g_props s3 !! 0%N) = Some OInsufVotes /\ p_store <$> (g_props s3 !! 0%N) = Some SFailed.
Proof.
  intros ts s. split_and!; [| |apply step_refused|intros s2; split_and!; [|intros s3; split_and!]].
  all: vm_compute; reflexivity.
Qed.

(* ---- (4) pass / fail only per the tally of the snapshot; a vote changes one opinion, never a power ---- *)
Theorem C14_pass_fail_per_tally : forall s e id v o s' ev p p',
  h_vote s e id v o = Some (s', ev) -> g_props s !! id = Some p -> g_props s' !! id = Some p' ->
  p_store p = SActive /\ p_status p = StVoting /\ g_h s <= p_vdl p /\
  vote_update v o (p_votes p) = Some (p_votes p') /\
  match tally (p_votes p') (p_pass p) with
  | RPassed => p_store p' = SPassed /\ p_outcome p' = OCompletedYes
  | RFailed => p_store p' = SFailed /\ p_outcome p' = OCompletedNo
  | RTBD => p_store p' = SActive /\ p_outcome p' = p_outcome p
  end.
Proof.
  intros s e id v o s' ev p p' (q & vs & E & Hs & Hv & Hd & _ & Hu & _ & -> & _)%h_vote_Some Hp Hp'.
  assert (q = p) as -> by congruence. simpl in Hp'. rewrite lookup_insert in Hp'. injection Hp' as <-.
  destruct (tally vs (p_pass p)) eqn:Et; simpl; rewrite Et; auto 10.
Qed.
Print Assumptions C14_pass_fail_per_tally.

Theorem C14_vote_keeps_snapshot_powers : forall v o vs vs', vote_update v o vs = Some vs' ->
  map (fun x => (v_val x, v_power x)) vs' = map (fun x => (v_val x, v_power x)) vs.
Proof. intros v o vs vs'. apply (vote_update_keeps pair). Qed.

(* ---- (5) a configuration change is applied only for a passed proposal, and at most once.
   [sane_op]: the option set in force when a proposal is created has initial funding >= 0 and a pass percentage in
   (0,100] — ValidateProposal demands >= 1 and 51..80 at genesis and at every update.
   FULL (since /repo 23f7d29 votes are tallied with the proposal's own percentage, like the finalisation): along every
   history, whatever the next operation is (public finalise or the EndBlock queue), a configuration change is
   applied only for a configuration proposal that, in the state in which its finalisation runs, is in the passed
   store with outcome completedYes and votes passing under its own percentage. ---- *)
Theorem C14_config_only_for_passed : forall ts t id, Forall sane_op ts -> sane_op t ->
  EvConfig id ∈ (step (run init ts).1 t).2 ->
  exists st p, Good st /\ g_props st !! id = Some p /\ p_type p = TConfig /\ p_store p = SPassed /\
    p_outcome p = OCompletedYes /\ tally (p_votes p) (p_pass p) = RPassed.
Proof.
  intros ts t id Hn Ht Hin.
  destruct (step_config_passed _ _ _ Ht (run_Good _ _ Hn Good_init) Hin) as (st & p & _ & H). by exists st, p.
Qed.
Print Assumptions C14_config_only_for_passed.

Theorem C14_config_only_when_votes_pass : forall s e id s' ev id', h_finalize s e id = Some (s', ev) -> EvConfig id' ∈ ev ->
  id' = id /\ exists p, g_props s !! id = Some p /\ p_type p = TConfig /\
    (p_store p = SPassed \/ p_store p = SFailed) /\ p_extra p < 8 /\
    tally (p_votes p) (p_pass p) = RPassed /\ p_votes p <> [] /\ (p_store p = SPassed -> rank_of s' id = 4%nat).
Proof. exact config_event_sound. Qed.
Print Assumptions C14_config_only_when_votes_pass.

(* finding C14.pass_percentage_drift (fixed by /repo 23f7d29), the repaired behaviour: the option is raised from 51
   to 80 during the vote, the votes yes(100) yes(100) are tallied with the proposal's own 51%: the proposal PASSES
   with the second vote, is finalised from the passed store, its update is applied once and it sits in one store
   only *)
Definition wopts80 : opts := mkOpts 1 10 5 80 (mkDist 180000 180000 100000 180000 180000) (mkDist 180000 180000 100000 180000 180000).
Definition wenv3 (o : opts) : env := mkEnv o o o [(10%N, 100); (11%N, 100); (12%N, 100)] [10%N; 11%N; 12%N] 13%N 14%N [].
Definition wtx3 (o : opts) (x : op) : txop := mkTx x (wenv3 o) 0%N 0 0%N.
Definition w_drift : list txop :=
  [wtx3 wopts (OAdjust 1%N 100); wtx3 wopts (OAdjust 2%N 100);
   wtx3 wopts (OBegin 1); wtx3 wopts (OCreate 0%N TConfig 1%N 5 5 10 10 51 true); wtx3 wopts (OFund 0%N 2%N 5); wtx3 wopts OEnd;
   wtx3 wopts80 (OBegin 2); wtx3 wopts80 (OVote 0%N 10%N OpYes); wtx3 wopts80 (OVote 0%N 11%N OpYes);
   wtx3 wopts80 (OVote 0%N 12%N OpNo); wtx3 wopts80 OEnd; wtx3 wopts80 (OBegin 3)].
Example C14_pass_drift_repaired :
  let s := (run init w_drift).1 in
  (fun p => (p_store p, p_outcome p)) <$> (g_props s !! 0%N) = Some (SPassed, OCompletedYes) /\
  (step s (wtx3 wopts80 OEnd)).2 = [EvConfig 0; EvDistrib 0 8 10] /\
  (fun p => (p_store p, p_outcome p, p_extra p)) <$> (g_props (step s (wtx3 wopts80 OEnd)).1.1 !! 0%N)
     = Some (SFinalized, OCompletedYes, 0) /\
  g_applied (step s (wtx3 wopts80 OEnd)).1.1 = [0%N].
Proof. vm_compute. repeat split; reflexivity. Qed.

Theorem C14_config_at_most_once : forall s e id p, g_props s !! id = Some p ->
  p_store p = SFinalized \/ p_store p = SFinFailed \/ 8 <= p_extra p -> h_finalize s e id = Some (s, []).
Proof.
  intros s e id p E Hs. unfold h_finalize. rewrite E. destruct (Z.leb_spec 8 (p_extra p)); [done|].
  destruct Hs as [->|[->|?]]; [done..|lia].
Qed.

(* ---- (6) funds ---- *)
Theorem C14_refund_exact : forall s id f amt ben s' ev p,
  h_withdraw s id f amt ben = Some (s', ev) -> g_props s !! id = Some p ->
  ev = [EvRefund id f ben amt] /\ 0 < amt /\ (p_store p = SActive \/ p_store p = SFailed) /\
  exists p' cur, g_props s' !! id = Some p' /\ refundable (p_outcome p') = true /\
    alookup f (p_indiv p) = Some cur /\ amt <= cur /\ amt <= p_total p /\
    p_total p' = p_total p - amt /\ p_indiv p' = aupd f (- amt) (p_indiv p) /\
    (refundable (p_outcome p) = false -> p_total p < p_goal p /\ p_fdl p < g_h s).
Proof.
  intros s id f amt ben s' ev p (q & p1 & cur & E & Hs & Ha & Hp1 & _ & Hl & Hc & Ht & -> & ->)%h_withdraw_Some Hp.
  assert (q = p) as -> by congruence. split_and!; try done.
  exists (with_funds p1 (p_total p1 - amt) (aupd f (- amt) (p_indiv p1))), cur.
  simpl. rewrite lookup_insert. destruct Hp1 as [[Hr ->] | (Hr & Hg & Hd & ->)]; simpl; split_and!; auto; congruence.
Qed.
Print Assumptions C14_refund_exact.

(* "returned in full", FULL (since /repo 782c385 / 19a3caa / 9dda72d): along every history the recorded total of every
   proposal is the sum of its non-negative funder records ... *)
Theorem C14_funds_invariant : forall ts, Forall sane_op ts ->
  forall id p, g_props (run init ts).1 !! id = Some p ->
  Forall (fun kv => 0 <= kv.2) (p_indiv p) /\ p_total p = asum (p_indiv p).
Proof. intros ts Hn. exact (run_FundsInv init ts Hn (recs_init _)). Qed.
Print Assumptions C14_funds_invariant.

(* ... and in a state that satisfies the invariants — so after every history, and after any number of relaunches — a
   funder of a cancelled / goal-missed proposal whose record is committed and positive can withdraw the whole record
   (the recorded total covers it) *)
Theorem C14_refund_in_full_any_state : forall s id f ben p cur, Inv s -> FundsInv s ->
  g_props s !! id = Some p -> refundable (p_outcome p) = true -> funded_visible (g_blk s) p f = true ->
  alookup f (p_indiv p) = Some cur -> 0 < cur ->
  exists s', h_withdraw s id f cur ben = Some (s', [EvRefund id f ben cur]).
Proof.
  intros s id f ben p cur HI HF E Hr Hv Hl Hc. destruct (HF id p E) as [Hnn Ht].
  pose proof (alookup_bounds f _ Hnn) as Hb. rewrite Hl in Hb. simpl in Hb. unfold h_withdraw. rewrite E, (refundable_failed p (HI id p E) Hr). simpl.
  rewrite (proj2 (Z.leb_gt _ _)), Hr, Hv, Hl, !(proj2 (Z.ltb_ge _ _)) by lia. eauto.
Qed.

Theorem C14_refund_in_full : forall ts id f ben p cur,
  Forall sane_op ts ->
  let s := (run init ts).1 in
  g_props s !! id = Some p -> refundable (p_outcome p) = true -> funded_visible (g_blk s) p f = true ->
  alookup f (p_indiv p) = Some cur -> 0 < cur ->
  exists s', h_withdraw s id f cur ben = Some (s', [EvRefund id f ben cur]).
Proof.
  intros ts id f ben p cur Hn s.
  apply C14_refund_in_full_any_state; [apply run_Inv, recs_init | by apply run_FundsInv, recs_init].
Qed.
Print Assumptions C14_refund_in_full.

(* finding C14.negative_fund_amount (fixed by /repo 782c385), the repaired behaviour: the negative contribution is
   refused, nobody is paid, and after the cancellation the proposer withdraws the whole contribution *)
Example C14_negative_fund_repaired :
  let ts := [wtx (OAdjust 1%N 100) []; wtx (OAdjust 2%N 100) [];
             wtx (OBegin 1) []; wtx (OCreate 0%N TGeneral 1%N 5 5 10 10 51 true) []; wtx OEnd []; wtx (OBegin 2) []] in
  let s := (run init ts).1 in
  (step s (wtx (OFund 0%N 2%N (-5)) [])).1.2 = false /\ (step s (wtx (OFund 0%N 2%N 0) [])).1.2 = false /\
  let s3 := (run s [wtx (OFund 0%N 2%N (-5)) []; wtx (OCancel 0%N 1%N) []; wtx OEnd []; wtx (OBegin 3) []]).1 in
  bal s3 2%N = 100 /\ (step s3 (wtx (OWithdraw 0%N 1%N (-1) 1%N) [])).1.2 = false /\
  (step s3 (wtx (OWithdraw 0%N 1%N 5 1%N) [])).1.2 = true /\
  bal (step s3 (wtx (OWithdraw 0%N 1%N 5 1%N) [])).1.1 1%N = 100.
Proof. vm_compute. repeat split; reflexivity. Qed.

Theorem C14_distribution_within_total : forall s e id p d s' paid bad,
  distribute s e id p d = (s', paid, bad) -> e_vals e <> [] -> 0 <= p_total p -> 0 <= d_burn d ->
  paid <= p_total p.
Proof.
  intros s e id p d s' paid bad H. change paid with (s', paid, bad).1.2. rewrite <- H. apply distribute_paid_le.
Qed.
Print Assumptions C14_distribution_within_total.

(* reachability of the full refund: after a cancellation every funder gets back exactly what they put in *)
Example C14_full_refund_reachable :
  let ts := [wtx (OAdjust 1%N 100) []; wtx (OAdjust 2%N 100) [];
             wtx (OBegin 1) []; wtx (OCreate 0%N TGeneral 1%N 5 5 10 10 51 true) []; wtx (OFund 0%N 2%N 3) []; wtx OEnd [];
             wtx (OBegin 2) []; wtx (OCancel 0%N 1%N) []; wtx OEnd [];
             wtx (OBegin 3) []; wtx (OWithdraw 0%N 1%N 5 1%N) []; wtx (OWithdraw 0%N 2%N 3 2%N) [];
             wtx (OWithdraw 0%N 2%N 1 2%N) []; wtx OEnd []] in
  (run init ts).2 = [EvContrib 0 1 5; EvContrib 0 2 3; EvRefund 0 1 1 5; EvRefund 0 2 2 3] /\
  bal (run init ts).1 1%N = 100 /\ bal (run init ts).1 2%N = 100.
Proof. vm_compute. repeat split; reflexivity. Qed.

(* ---- (7) relaunch from an exported state (olfullnode save_state -> genesis -> LoadProposals).
   load ∘ dump preserves every proposal record, its fund records and its votes (validator, power, OPINION): only the
   deadlines of active proposals are re-based on the exported version, as the dump does ---- *)
Theorem C14_load_dump_preserves : forall s ver bals pool, FundsInv s -> WInv s ->
  forall id, match g_props s !! id with
             | Some p => exists r, g_props (reload s ver bals pool) !! id = Some r /\ same_record ver p r
             | None => g_props (reload s ver bals pool) !! id = None
             end.
Proof. exact reload_preserves. Qed.
Print Assumptions C14_load_dump_preserves.

(* every history, relaunches included (any number, at any point), from a state in which all invariants hold: they hold
   in the final state — the lifecycle invariant, the agreement of tally and store, total = sum of non-negative funder
   records, distinct validators / funders per proposal — and the stage of no proposal ever moved backwards, also
   across relaunches *)
Theorem C14_relaunch_monotone_from : forall hs s, Forall sane_hop hs -> AllInv s ->
  AllInv (hrun s hs).1 /\ forall id, (rank_of s id <= rank_of (hrun s hs).1 id)%nat.
Proof.
  intros hs s Hs HA.
  apply (hrun_ind (fun s' => AllInv s' /\ forall id, (rank_of s id <= rank_of s' id)%nat)); [|done].
  eapply Forall_impl; [exact Hs|]. intros [t|ver bals pool] Hh s' [HA' Hr]; simpl.
  - split; [by apply step_AllInv | intros id; etrans; [apply Hr | apply step_rank]].
  - destruct (reload_allinv s' ver bals pool HA') as [HA'' Hr']. split; [done|]. intros id. by rewrite Hr'.
Qed.

Theorem C14_relaunch_keeps_everything : forall hs, Forall sane_hop hs ->
  AllInv (hrun init hs).1 /\ forall id, (rank_of init id <= rank_of (hrun init hs).1 id)%nat.
Proof. intros hs H. exact (C14_relaunch_monotone_from hs init H AllInv_init). Qed.
Print Assumptions C14_relaunch_keeps_everything.

(* so the theorems about good states apply after any number of relaunches, e.g. C14_refund_in_full_any_state and: *)
Theorem C14_config_only_for_passed_any_state : forall s e id s' ev id', Good s ->
  h_finalize s e id = Some (s', ev) -> EvConfig id' ∈ ev ->
  id' = id /\ exists p, g_props s !! id = Some p /\ p_type p = TConfig /\ p_store p = SPassed /\
    p_outcome p = OCompletedYes /\ tally (p_votes p) (p_pass p) = RPassed /\ rank_of s' id = 4%nat.
Proof. exact finalize_config_passed. Qed.

(* Example with partial votes: two of three validators have voted yes (66% < 67%: undecided) when the state is
   exported; the import keeps the two opinions; the third yes on the new chain passes the proposal and it is
   finalised there *)
Definition wopts67 : opts := mkOpts 1 10 5 67 (mkDist 180000 180000 100000 180000 180000) (mkDist 180000 180000 100000 180000 180000).
Example C14_relaunch_keeps_partial_votes :
  let t := wtx3 wopts67 in
  let hs1 := [HOp (t (OAdjust 1%N 100)); HOp (t (OAdjust 2%N 100));
              HOp (t (OBegin 1)); HOp (t (OCreate 0%N TGeneral 1%N 5 9 14 10 67 true)); HOp (t (OFund 0%N 2%N 5)); HOp (t OEnd);
              HOp (t (OBegin 2)); HOp (t (OVote 0%N 10%N OpYes)); HOp (t (OVote 0%N 11%N OpYes)); HOp (t OEnd)] in
  let s1 := (hrun init hs1).1 in
  let s2 := (hstep s1 (HReload 2 [(1%N, 95); (2%N, 95)] 0)).1.1 in
  (fun p => (p_store p, p_status p, p_votes p, p_total p, p_indiv p, p_vdl p)) <$> (g_props s1 !! 0%N)
    = Some (SActive, StVoting, [mkVote 10 100 OpYes; mkVote 11 100 OpYes; mkVote 12 100 OpUnknown], 10, [(1%N, 5); (2%N, 5)], 6) /\
  (fun p => (p_store p, p_status p, p_votes p, p_total p, p_indiv p, p_vdl p)) <$> (g_props s2 !! 0%N)
    = Some (SActive, StVoting, [mkVote 10 100 OpYes; mkVote 11 100 OpYes; mkVote 12 100 OpUnknown], 10, [(1%N, 5); (2%N, 5)], 4) /\
  let s3 := (hrun s2 [HOp (t (OBegin 1)); HOp (t (OVote 0%N 12%N OpYes)); HOp (t OEnd); HOp (t (OBegin 2)); HOp (t OEnd)]).1 in
  (fun p => (p_store p, p_outcome p)) <$> (g_props s3 !! 0%N) = Some (SFinalized, OCompletedYes).
Proof. vm_compute. repeat split; reflexivity. Qed.

(* ---- (8) the fund store is denominated in OLT: a create / fund / withdraw whose amount names any other currency (a
   registered one the sender really owns, an unknown name, the empty string) is refused and changes nothing ---- *)
Theorem C14_non_olt_refused : forall s t, t_cur t <> 0%N ->
  match t_op t with OCreate _ _ _ _ _ _ _ _ _ | OFund _ _ _ | OWithdraw _ _ _ _ => step s t = (s, false, []) | _ => True end.
Proof. intros s t Hc. unfold step, cur_ok. rewrite (proj2 (N.eqb_neq _ _) Hc). by destruct (t_op t). Qed.
Print Assumptions C14_non_olt_refused.

(* ---- (9) tallies on and next to the thresholds (the code decides in exact integer arithmetic since /repo 6d9c57c,
   like [tally]): with powers 3350000 / 3300000 / 3350000 and 67%, a NO of exactly 33% leaves the proposal undecided,
   a NO of 33.5% fails it, a YES of exactly 67% passes it.  Former finding C14.tally_float_boundary (fixed). ---- *)
Example C14_tally_on_the_thresholds :
  tally [mkVote 10 3350000 OpUnknown; mkVote 11 3300000 OpNo; mkVote 12 3350000 OpUnknown] 67 = RTBD /\
  tally [mkVote 10 3350000 OpNo; mkVote 11 3300000 OpUnknown; mkVote 12 3350000 OpUnknown] 67 = RFailed /\
  tally [mkVote 10 3350000 OpYes; mkVote 11 3300000 OpUnknown; mkVote 12 3350000 OpYes] 67 = RPassed /\
  tally [mkVote 10 3350000 OpYes; mkVote 11 3300000 OpNo; mkVote 12 3350000 OpYes] 67 = RPassed /\
  tally [mkVote 10 100 OpYes; mkVote 11 100 OpYes; mkVote 12 100 OpNo] 67 = RFailed.
Proof. vm_compute. repeat split; reflexivity. Qed.

(* "failed" means exactly: the recorded NO votes make a pass impossible even if everybody else votes YES *)
Theorem C14_failed_iff_pass_unreachable : forall vs pass,
  0 < power_all vs - power_of OpGiveup vs -> tally vs pass <> RPassed ->
  (tally vs pass = RFailed <->
   (power_all vs - power_of OpGiveup vs - power_of OpNo vs) * 100 < pass * (power_all vs - power_of OpGiveup vs)).
Proof.
  intros vs pass Ht Hnp. unfold tally in *. apply Z.ltb_lt in Ht. rewrite Ht in *.
  destruct (pass * (power_all vs - power_of OpGiveup vs) <=? power_of OpYes vs * 100); [congruence|].
  destruct ((power_all vs - power_of OpGiveup vs - power_of OpNo vs) * 100 <? pass * (power_all vs - power_of OpGiveup vs)) eqn:E.
  - apply Z.ltb_lt in E. split; auto.
  - apply Z.ltb_ge in E. split; [discriminate | lia].
Qed.

(* ---- (10) "... then passed, failed or expired, then finalised": FALSE of the faithful model (and of the code) for an
   EXPIRED proposal whose goal was reached: it is never finalised, a public PROPOSAL_FINALIZE is refused (the tally is
   undecided), a withdrawal is refused (the goal was reached): the funds are neither returned nor distributed.
   Known finding C14.expired_never_finalised (a product decision, not a repair). ---- *)
Theorem C14_expired_funds_locked_refuted : exists ts,
  let s := (run init ts).1 in
  (fun p => (p_store p, p_outcome p, p_total p, p_goal p)) <$> (g_props s !! 0%N) = Some (SFailed, OInsufVotes, 10, 10) /\
  h_finalize s wenv 0%N = None /\ h_withdraw s 0%N 2%N 5 2%N = None /\ g_qfin (begin_block s 100) = [].
Proof.
  exists [wtx3 wopts67 (OAdjust 1%N 100); wtx3 wopts67 (OAdjust 2%N 100);
          wtx3 wopts67 (OBegin 1); wtx3 wopts67 (OCreate 0%N TGeneral 1%N 5 3 8 10 67 true); wtx3 wopts67 (OFund 0%N 2%N 5); wtx3 wopts67 OEnd;
          wtx3 wopts67 (OBegin 2); wtx3 wopts67 (OVote 0%N 10%N OpYes); wtx3 wopts67 OEnd;
          wtx3 wopts67 (OBegin 7); wtx3 wopts67 OEnd; wtx3 wopts67 (OBegin 8)].
  vm_compute. repeat split; reflexivity.
Qed.
